(* C16: what the specification lists of Model/StressRoute.v contain.  Together with [delivered_exactly]
   (what arrives = the specification lists, as multisets) this gives: everything Honeycomb
   receives is intact (no probe, host Honeycomb, marked stressed or late), and the owning peer receives only probes
   (which it discards on receipt) and plain, unmarked forwards. *)
From Refinery Require Import Lib.Base Model.StressRoute.

Section More.
  Variable own : N -> N.
  Variable keep_rule : N -> bool.

  Definition up_shape (p : pay) : Prop :=
    p_probe p = false /\ p_host p = 0%N /\ (p_stressed p = true /\ p_late p = false \/ p_stressed p = false /\ p_late p = true).
  (* addressed to the owner of its trace, which is not this node *)
  Definition pr_shape (p : pay) : Prop :=
    p_host p <> 0%N /\ p_host p = own (p_tid p) /\
    (p_probe p = true /\ p_stressed p = true \/ p_probe p = false /\ p_stressed p = false /\ p_late p = false).

  Lemma spec_up_shape : forall ops st seen buf, Forall up_shape (spec_up own keep_rule st seen buf ops).
  Proof.
    induction ops as [|o r IH]; intros st seen buf; [constructor|].
    destruct o as [sid tid key ds|b| | |psid ptid pkey pds]; cbn [spec_up]; try apply IH.
    apply Forall_app. split; [|apply IH].
    destruct (fate_of own keep_rule st seen buf tid); cbn [expect_up]; [| |constructor..].
    - constructor; [|constructor]. split; [reflexivity|]. split; [reflexivity|]. left. split; reflexivity.
    - constructor; [|constructor]. split; [reflexivity|]. split; [reflexivity|]. right. split; reflexivity.
  Qed.

  Lemma spec_pr_shape : forall ops st seen buf, Forall pr_shape (spec_pr own keep_rule st seen buf ops).
  Proof.
    induction ops as [|o r IH]; intros st seen buf; [constructor|].
    destruct o as [sid tid key ds|b| | |psid ptid pkey pds]; cbn [spec_pr]; try apply IH.
    apply Forall_app. split; [|apply IH].
    unfold fate_of. destruct st.
    - destruct (keep_rule tid); cbn [expect_pr]; [|constructor].
      destruct (N.eqb (own tid) 0) eqn:E; [constructor|]. apply N.eqb_neq in E.
      constructor; [|constructor]. unfold pr_shape. cbn. repeat split; auto.
    - destruct (N.eqb (own tid) 0) eqn:E.
      + destruct (mem_N tid buf); [constructor|]. destruct (mem_N tid seen); [destruct (keep_rule tid)|]; constructor.
      + apply N.eqb_neq in E. cbn [expect_pr]. constructor; [|constructor]. unfold pr_shape. cbn. repeat split; auto.
  Qed.

  (* the owner's collector (which discards probes on receipt) only ever gets plain forwards of unstressed times *)
  Lemma owner_collects_only_forwards ops st seen buf p :
    In p (spec_pr own keep_rule st seen buf ops) -> p_probe p = false -> p_stressed p = false /\ p_late p = false.
  Proof.
    intros Hin Hp. pose proof (spec_pr_shape ops st seen buf) as F. rewrite Forall_forall in F.
    destruct (F p Hin) as (_ & _ & [[Hpr _]|[_ [Hs Hl]]]); [congruence|split; assumption].
  Qed.
End More.
