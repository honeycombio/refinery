(* C09.  An integer |z| < 2^53 and the float64 of the same value look the same to every matcher, so the
   rules outcome and the key are the same for two traces that are the same data ([trace_eqv]), which is
   what decoding two encodings of one value ([wire_rel]) gives.  For span order: the key is a function
   of per-field sets of texts ([key_perm]); a condition's value ignores the order ([cond_value_perm]). *)
From Coq Require Import Permutation Sorting.Sorted.
From Refinery Require Import Lib.Base Model.Values Model.Rules Model.RulesSpec Model.Wire Model.KeyLite
     Proofs.Rules.
Local Open Scope string_scope.
Local Open Scope Z_scope.

Lemma pos_strip_spec p : forall e q e',
  pos_strip p e = (q, e') -> e <= e' /\ Zpos p = Zpos q * 2 ^ (e' - e).
Proof.
  induction p as [p IH|p IH|]; intros e q e' H; cbn [pos_strip] in H.
  1,3: injection H as <- <-; rewrite Z.sub_diag; lia.
  apply IH in H as [Hle Heq]. split; [lia|].
  replace (e' - e) with (Z.succ (e' - (e + 1))) by lia.
  rewrite Z.pow_succ_r by lia. rewrite Pos2Z.inj_xO, Heq. ring.
Qed.

Lemma dy_norm_int z : exists m k, dy_norm z 0 = Dy m k /\ 0 <= k /\ z = m * 2 ^ k.
Proof.
  destruct z as [|p|p]; cbn [dy_norm]; [exists 0, 0; repeat split; lia| |].
  all: destruct (pos_strip p 0) as [q k] eqn:E; apply pos_strip_spec in E as [Hk Hp];
    rewrite Z.sub_0_r in Hp; eexists _, k; (repeat split; [lia|]); lia.
Qed.

Lemma dy_trunc_norm z : dy_trunc (dy_norm z 0) = z.
Proof.
  destruct (dy_norm_int z) as (m & k & -> & Hk & Hz). cbn [dy_trunc].
  destruct (Z.leb_spec 0 k); [symmetry; exact Hz|lia].
Qed.

Lemma dy_cmp_ints m1 k1 m2 k2 :
  0 <= k1 -> 0 <= k2 -> dy_cmp (Dy m1 k1) (Dy m2 k2) = Z.compare (m1 * 2 ^ k1) (m2 * 2 ^ k2).
Proof.
  intros H1 H2. unfold dy_cmp. cbv zeta. set (e := Z.min k1 k2).
  assert (He : 0 <= e) by (unfold e; lia).
  assert (Hp : 2 ^ e > 0) by (apply Z.lt_gt; apply Z.pow_pos_nonneg; lia).
  rewrite (Zmult_compare_compat_r _ _ (2 ^ e) Hp).
  rewrite <- !Z.mul_assoc, <- !Z.pow_add_r by (unfold e; lia).
  replace (k1 - e + e) with k1 by lia. replace (k2 - e + e) with k2 by lia. reflexivity.
Qed.

Lemma dy_cmp_norm x y : dy_cmp (dy_norm x 0) (dy_norm y 0) = Z.compare x y.
Proof.
  destruct (dy_norm_int x) as (m1 & k1 & -> & H1 & ->).
  destruct (dy_norm_int y) as (m2 & k2 & -> & H2 & ->).
  apply dy_cmp_ints; assumption.
Qed.

Lemma dy_cmp_norm_int x y : dy_cmp (dy_norm x 0) (Dy y 0) = Z.compare x y.
Proof.
  destruct (dy_norm_int x) as (m & k & -> & Hk & ->).
  rewrite dy_cmp_ints, Z.pow_0_r, Z.mul_1_r by lia. reflexivity.
Qed.

(* the range in which a float64 represents every integer exactly *)
Definition small (z : Z) : Prop := Z.abs z < 2 ^ 53.

Lemma round53_small z : small z -> round53 z = dy_norm z 0.
Proof.
  unfold small, round53. intros H. cbv zeta.
  destruct (Z.ltb_spec (Z.abs z) (2 ^ 53)); [reflexivity|lia].
Qed.

Section Obs.
  Variable fmtv : dy -> string.
  Variable parsef : string -> option dy.
  Variable rx : string -> option (string -> bool).

  Lemma str_int_float z : small z -> sval_str fmtv (SF64 (dy_norm z 0)) = sval_str fmtv (SInt z).
  Proof.
    unfold small. intros H. cbn [sval_str]. unfold f64_str, dy_eqb.
    rewrite dy_trunc_norm, dy_cmp_norm_int, Z.compare_refl. cbn [andb].
    destruct (Z.ltb_spec (Z.abs z) (2 ^ 63)); [reflexivity|lia].
  Qed.

  Lemma int_int_float z : small z -> sval_int (SF64 (dy_norm z 0)) = sval_int (SInt z).
  Proof.
    unfold small. intros H. cbn [sval_int]. unfold f2i, in_int64, int_min, int_max. rewrite dy_trunc_norm.
    destruct (Z.leb_spec (- 2 ^ 63) z); [|lia]. destruct (Z.leb_spec z (2 ^ 63 - 1)); [reflexivity|lia].
  Qed.

  Lemma float_int_float z : small z ->
    sval_float parsef (SF64 (dy_norm z 0)) = sval_float parsef (SInt z).
  Proof. intros H. cbn [sval_float]. rewrite round53_small by exact H. reflexivity. Qed.

  Lemma untyped_int_float z cv : small z ->
    compare_untyped (SF64 (dy_norm z 0)) cv = compare_untyped (SInt z) cv.
  Proof.
    intros Hz. destruct cv as [[]|]; cbn [compare_untyped];
      rewrite ?dy_cmp_norm_int, ?round53_small by exact Hz; reflexivity.
  Qed.

  Lemma cmatch_int_float c z : small z ->
    cmatch fmtv parsef rx c (Some (SF64 (dy_norm z 0))) = cmatch fmtv parsef rx c (Some (SInt z)).
  Proof.
    intros Hz. apply cmatch_obs;
      [apply str_int_float|apply int_int_float|apply float_int_float|apply untyped_int_float]; exact Hz.
  Qed.
End Obs.

Inductive sv_eqv : sval -> sval -> Prop :=
| sv_same v : sv_eqv v v
| sv_if z : small z -> sv_eqv (SInt z) (SF64 (dy_norm z 0))
| sv_fi z : small z -> sv_eqv (SF64 (dy_norm z 0)) (SInt z).

Definition opt_rel {A B} (R : A -> B -> Prop) (a : option A) (b : option B) : Prop :=
  match a, b with
  | Some x, Some y => R x y
  | None, None => True
  | _, _ => False
  end.

Definition span_eqv (s1 s2 : span) : Prop :=
  Forall2 (fun a b => fst a = fst b /\ sv_eqv (snd a) (snd b)) s1 s2.
Definition trace_eqv (t1 t2 : trace) : Prop :=
  Forall2 span_eqv (t_spans t1) (t_spans t2) /\ opt_rel span_eqv (t_root t1) (t_root t2).

Lemma Forall2_map {A B A' B'} (R : A -> B -> Prop) (R' : A' -> B' -> Prop) f g l1 l2 :
  (forall x y, R x y -> R' (f x) (g y)) -> Forall2 R l1 l2 -> Forall2 R' (map f l1) (map g l2).
Proof. intros H. induction 1; cbn [map]; constructor; auto. Qed.

Lemma Forall2_map_eq {A B C} (R : A -> B -> Prop) (f : A -> C) (g : B -> C) l1 l2 :
  (forall x y, R x y -> f x = g y) -> Forall2 R l1 l2 -> map f l1 = map g l2.
Proof. intros H. induction 1; cbn [map]; f_equal; auto. Qed.

Lemma Forall2_length {A B} (R : A -> B -> Prop) l1 l2 : Forall2 R l1 l2 -> length l1 = length l2.
Proof. induction 1; cbn [length]; congruence. Qed.

Lemma existsb_Forall2 {A B} (R : A -> B -> Prop) (f : A -> bool) (g : B -> bool) l1 l2 :
  Forall2 R l1 l2 -> (forall a b, R a b -> f a = g b) -> existsb f l1 = existsb g l2.
Proof. intros H Hfg. induction H as [|a b r1 r2 Hab _ IH]; cbn [existsb]; [|rewrite (Hfg a b Hab), IH]; reflexivity. Qed.

Lemma sget_eqv f s1 s2 : span_eqv s1 s2 -> opt_rel sv_eqv (sget f s1) (sget f s2).
Proof.
  induction 1 as [|[k1 v1] [k2 v2] r1 r2 [Hk Hv] _ IH]; cbn [sget]; [exact I|].
  cbn [fst snd] in Hk, Hv. subst k2. destruct (String.eqb f k1); [exact Hv|exact IH].
Qed.

Section Encoding.
  Variable fmtv : dy -> string.
  Variable parsef : string -> option dy.
  Variable rx : string -> option (string -> bool).
  Variable ds : nat -> option outcome.
  Variable draw : nat -> Z.
  Notation cmatch := (cmatch fmtv parsef rx).
  Notation run_rules := (run_rules fmtv parsef rx ds draw).

  Lemma cmatch_eqv c a b : opt_rel sv_eqv a b -> cmatch c a = cmatch c b.
  Proof.
    intros H. destruct a as [x|], b as [y|]; try contradiction; [|reflexivity].
    destruct H as [v|z Hz|z Hz]; [reflexivity|symmetry|]; apply cmatch_int_float, Hz.
  Qed.

  Lemma cond_value_eqv t1 t2 s1 s2 c :
    trace_eqv t1 t2 -> span_eqv s1 s2 -> opt_rel sv_eqv (cond_value t1 s1 c) (cond_value t2 s2 c).
  Proof.
    intros [Hsp Hrt] Hs. unfold cond_value. destruct (is_virtual c).
    - rewrite (Forall2_length _ _ _ Hsp). apply sv_same.
    - induction (eff_fields c) as [|f r IH]; cbn [first_present]; [exact I|].
      assert (Hf : opt_rel sv_eqv (field_on t1 s1 f) (field_on t2 s2 f)).
      { unfold field_on. destruct (strip_root f) as [f'|]; [|apply sget_eqv, Hs].
        destruct (t_root t1), (t_root t2); try contradiction; [apply sget_eqv, Hrt|exact I]. }
      destruct (field_on t1 s1 f), (field_on t2 s2 f); try contradiction; [exact Hf|exact IH].
  Qed.

  Lemma run_rules_eqv t1 t2 rules i : trace_eqv t1 t2 -> run_rules t1 i rules = run_rules t2 i rules.
  Proof.
    intros Ht. apply run_rules_ext. intros r. apply (spec_rule_matches_rel fmtv span_eqv).
    - destruct Ht as [_ Hr]. unfold has_root. destruct (t_root t1), (t_root t2); try contradiction; reflexivity.
    - intros f g. apply existsb_Forall2, Ht.
    - intros s1 s2 c Hs _. apply cmatch_eqv, cond_value_eqv; assumption.
  Qed.
End Encoding.

Definition trace_perm (t1 t2 : trace) : Prop :=
  Permutation (t_spans t1) (t_spans t2) /\ t_root t1 = t_root t2.

(* of all the spans a condition's value reads only their number *)
Lemma cond_value_perm t1 t2 sp c : trace_perm t1 t2 -> cond_value t1 sp c = cond_value t2 sp c.
Proof.
  intros [Hp Hr]. unfold cond_value. rewrite (Permutation_length Hp).
  destruct (is_virtual c); [reflexivity|].
  induction (eff_fields c) as [|f r IH]; cbn [first_present]; [reflexivity|].
  unfold field_on. rewrite Hr, IH. reflexivity.
Qed.

Definition wint (w : wire) : option Z := match w with WInt z | WUint z => Some z | _ => None end.
Definition wfloat (w : wire) : option dy := match w with WF32 d | WF64 d => Some d | _ => None end.

(* (p1, w1) and (p2, w2) carry the same value.  Unsigned integers only up to MaxInt64 here; if a JSON path
   is involved the integer must be exactly representable. *)
Definition wire_rel (p1 : path) (w1 : wire) (p2 : path) (w2 : wire) : Prop :=
  match wint w1, wint w2 with
  | Some z1, Some z2 =>
      z1 = z2 /\ z1 <= int_max /\ ((p1 = PJson \/ p2 = PJson) -> small z1)
  | Some z, None => wfloat w2 = Some (dy_norm z 0) /\ small z
  | None, Some z => wfloat w1 = Some (dy_norm z 0) /\ small z
  | None, None =>
      match wfloat w1, wfloat w2 with
      | Some d1, Some d2 => d1 = d2
      | None, None => w1 = w2
      | _, _ => False
      end
  end.

Lemma dec_unsigned_same p z : z <= int_max -> dec p (WUint z) = dec p (WInt z).
Proof.
  intros H. cbn [dec]. unfold norm_uint. destruct (Z.leb_spec z int_max); [|lia]. destruct p; reflexivity.
Qed.

Lemma dec_int p w z : wint w = Some z -> z <= int_max ->
  dec p w = match p with PJson => SF64 (round53 z) | _ => SInt z end.
Proof.
  intros Hw Hz. destruct w; try discriminate Hw; injection Hw as ->;
    rewrite ?dec_unsigned_same by exact Hz; destruct p; reflexivity.
Qed.

Lemma dec_float p w d : wfloat w = Some d -> dec p w = SF64 d.
Proof. intros H. destruct w; try discriminate H; injection H as ->; reflexivity. Qed.

Lemma dec_small_int p w z : wint w = Some z -> small z ->
  dec p w = SInt z \/ dec p w = SF64 (dy_norm z 0).
Proof.
  intros Hw Hz. rewrite (dec_int p w z Hw) by (unfold small, int_max in *; lia).
  rewrite round53_small by exact Hz. destruct p; auto.
Qed.

Lemma int_float_eqv z a b : small z ->
  a = SInt z \/ a = SF64 (dy_norm z 0) -> b = SInt z \/ b = SF64 (dy_norm z 0) -> sv_eqv a b.
Proof. intros Hz [-> | ->] [-> | ->]; constructor; exact Hz. Qed.

Lemma dec_rel p1 w1 p2 w2 : wire_rel p1 w1 p2 w2 -> sv_eqv (dec p1 w1) (dec p2 w2).
Proof.
  unfold wire_rel. destruct (wint w1) as [z1|] eqn:E1, (wint w2) as [z2|] eqn:E2.
  - intros (<- & Hmax & Hj). rewrite (dec_int p1 w1 z1 E1 Hmax), (dec_int p2 w2 z1 E2 Hmax).
    destruct p1, p2; try apply sv_same.
    (* exactly one side came through JSON *)
    all: rewrite round53_small by auto; constructor; auto.
  - intros [Hf Hs]. apply (int_float_eqv z1 _ _ Hs); [apply dec_small_int; assumption|].
    right. apply dec_float, Hf.
  - intros [Hf Hs]. apply (int_float_eqv z2 _ _ Hs); [|apply dec_small_int; assumption].
    right. apply dec_float, Hf.
  - destruct (wfloat w1) as [d1|] eqn:F1, (wfloat w2) as [d2|] eqn:F2; try contradiction.
    + intros ->. rewrite (dec_float p1 w1 _ F1), (dec_float p2 w2 _ F2). apply sv_same.
    + intros <-. destruct w1; try discriminate E1; try discriminate F1; apply sv_same.
Qed.

Definition wspan_rel (s1 s2 : wspan) : Prop :=
  Forall2 (fun a b => fst a = fst b /\ wire_rel (w_path s1) (snd a) (w_path s2) (snd b))
          (w_fields s1) (w_fields s2).
Definition wtrace_rel (t1 t2 : wtrace) : Prop :=
  Forall2 wspan_rel (wt_spans t1) (wt_spans t2) /\
  match wt_root t1, wt_root t2 with
  | Some a, Some b => wspan_rel a b
  | None, None => True
  | _, _ => False
  end.

Lemma dec_span_rel s1 s2 : wspan_rel s1 s2 -> span_eqv (dec_span s1) (dec_span s2).
Proof.
  apply Forall2_map. intros a b [Hk Hw]. split; [exact Hk|apply dec_rel, Hw].
Qed.

Lemma dec_trace_rel t1 t2 : wtrace_rel t1 t2 -> trace_eqv (dec_trace t1) (dec_trace t2).
Proof.
  intros [Hs Hr]. split.
  - apply (Forall2_map wspan_rel); [exact dec_span_rel|exact Hs].
  - cbn [dec_trace t_root]. destruct (wt_root t1), (wt_root t2); try contradiction; [apply dec_span_rel, Hr|exact I].
Qed.

(* the key is a function of per-field SETS of texts: [sset] yields the one sorted duplicate-free
   list with the given elements *)
Definition slt (a b : string) : Prop := String.compare a b = Lt.

Lemma sinsert_In x l y : In y (sinsert x l) <-> y = x \/ In y l.
Proof.
  induction l as [|z r IH]; cbn [sinsert In]; [intuition|].
  destruct (String.compare x z) eqn:E; cbn [In].
  - apply String.compare_eq_iff in E. subst z. intuition.
  - intuition.
  - rewrite IH. intuition.
Qed.

Lemma sinsert_sorted x l : StronglySorted slt l -> StronglySorted slt (sinsert x l).
Proof.
  induction 1 as [|z r S IH F]; cbn [sinsert]; [repeat constructor|].
  destruct (String.compare x z) eqn:E.
  - constructor; assumption.
  - constructor; [constructor; assumption|]. constructor; [exact E|].
    eapply Forall_impl; [|exact F]. intros y. apply string_lt_trans, E.
  - constructor; [exact IH|]. apply Forall_forall. intros y Hy.
    apply sinsert_In in Hy. destruct Hy as [->|Hy].
    + unfold slt. rewrite String.compare_antisym, E. reflexivity.
    + exact (proj1 (Forall_forall _ _) F y Hy).
Qed.

Lemma sset_sorted l : StronglySorted slt (sset l).
Proof. induction l as [|x r IH]; cbn [sset fold_right]; [constructor|apply sinsert_sorted; exact IH]. Qed.

Lemma sset_In l y : In y (sset l) <-> In y l.
Proof.
  induction l as [|x r IH]; cbn [sset fold_right In]; [reflexivity|].
  fold (sset r). rewrite sinsert_In, IH. intuition.
Qed.

Lemma sset_same_elements l l' : (forall y, In y l <-> In y l') -> sset l = sset l'.
Proof.
  intros H.
  apply (strict_sorted_eq slt); [exact string_lt_irrefl|exact string_lt_trans|apply sset_sorted|apply sset_sorted|].
  intros y. rewrite !sset_In. apply H.
Qed.

Lemma filter_some_perm {A} (l l' : list (option A)) :
  Permutation l l' -> Permutation (filter_some l) (filter_some l').
Proof.
  induction 1 as [|x l l' _ IH|x y l|l l' l'' _ IH1 _ IH2]; cbn [filter_some].
  - constructor.
  - destruct x; [constructor|]; exact IH.
  - destruct x, y; try apply Permutation_refl. apply perm_swap.
  - eapply Permutation_trans; eassumption.
Qed.

Section KeyProofs.
  Variable fmtf : dy -> string.
  Notation key_of := (key_of fmtf).

  Lemma key_of_ext fields use_len t1 t2 :
    (forall f, sset (field_texts fmtf f (t_spans t1)) = sset (field_texts fmtf f (t_spans t2))) ->
    (forall f, root_part fmtf (t_root t1) f = root_part fmtf (t_root t2) f) ->
    length (t_spans t1) = length (t_spans t2) ->
    key_of fields use_len t1 = key_of fields use_len t2.
  Proof.
    intros Hf Hr Hl. unfold KeyLite.key_of. rewrite Hl, (map_ext _ _ Hr). do 2 f_equal.
    apply map_ext. intros f. unfold field_part. rewrite Hf. reflexivity.
  Qed.

  Theorem key_perm fields use_len t1 t2 :
    trace_perm t1 t2 -> key_of fields use_len t1 = key_of fields use_len t2.
  Proof.
    intros [Hp Hr]. apply key_of_ext; [|rewrite Hr; reflexivity|apply Permutation_length, Hp].
    intros f. apply sset_same_elements. intros y.
    pose proof (filter_some_perm _ _ (Permutation_map (fun sp => option_map (key_str fmtf) (sget f sp)) Hp)) as HP.
    split; apply Permutation_in; [|apply Permutation_sym]; exact HP.
  Qed.

  Lemma key_str_eqv a b : opt_rel sv_eqv a b ->
    option_map (key_str fmtf) a = option_map (key_str fmtf) b.
  Proof.
    intros H. destruct a, b; try contradiction; [|reflexivity]. cbn [option_map]. f_equal.
    destruct H as [v|z Hz|z Hz]; cbn [key_str]; [reflexivity|symmetry|]; apply (str_int_float fmtf z Hz).
  Qed.

  Theorem key_eqv fields use_len t1 t2 :
    trace_eqv t1 t2 -> key_of fields use_len t1 = key_of fields use_len t2.
  Proof.
    intros [Hs Hr]. apply key_of_ext; [| |apply (Forall2_length _ _ _ Hs)]; intros f.
    - unfold field_texts. do 2 f_equal. apply (Forall2_map_eq span_eqv); [|exact Hs].
      intros a b Hab. apply key_str_eqv, sget_eqv, Hab.
    - unfold root_part. destruct (t_root t1) as [a|], (t_root t2) as [b|]; try contradiction; [|reflexivity].
      pose proof (key_str_eqv _ _ (sget_eqv f a b Hr)) as H.
      destruct (sget f a), (sget f b); try discriminate H; [|reflexivity].
      injection H as ->. reflexivity.
  Qed.
End KeyProofs.

Theorem key_encoding_invariant fmtf fields use_len t1 t2 :
  wtrace_rel t1 t2 ->
  key_of fmtf fields use_len (dec_trace t1) = key_of fmtf fields use_len (dec_trace t2).
Proof. intros Ht. apply key_eqv, dec_trace_rel, Ht. Qed.
