(* Proofs about Model/Auth.v (C24).  GetReplaceKey computes the documented SendKeyMode table [doc_out], and the
   script extracted from each entry point, run over it, is the one specification [spec].  At the end, the
   configuration and key on which the gRPC trace script of the upstream revision the finding was made on
   ([pinned_grpc_trace], Model/Auth.v) departs from [spec]. *)
From Refinery Require Import Lib.Base Gen.GenC24 Model.Auth.

Lemma nonempty_true s : nonempty s = true <-> s <> ""%string.
Proof. unfold nonempty. rewrite negb_true_iff. apply String.eqb_neq. Qed.

Ltac modes c :=
  repeat match goal with
         | |- context [String.eqb (ak_mode c) ?s] => destruct (String.eqb (ak_mode c) s)
         end.

(* [overwrite_with] answers "" where the documented table keeps the client's key, and GetReplaceKey falls back
   to the client's key on "": that makes the two agree.  (The "unlisted" arms are each other's De Morgan form.) *)
Lemma overwrite_or_key c key kid : nonempty (ak_send c) = true ->
  (if nonempty (overwrite_with c key kid) then overwrite_with c key kid else key) = doc_out c key kid.
Proof.
  intros Hs. unfold overwrite_with, doc_out. rewrite Hs. cbn [negb].
  modes c; destruct (nonempty key) eqn:Hk; destruct (listed c key kid); cbn [andb negb];
    rewrite ?Hs, ?Hk; reflexivity.
Qed.

Lemma replace_table c key kid :
  get_replace_key c key kid =
  if nonempty (doc_out c key kid) then Some (doc_out c key kid) else None.
Proof.
  unfold get_replace_key. destruct (nonempty (ak_send c)) eqn:Hs.
  - rewrite (overwrite_or_key c key kid Hs). reflexivity.
  - unfold doc_out. rewrite Hs. reflexivity.
Qed.

Lemma doc_out_cases c key kid :
  doc_out c key kid = key \/ (doc_out c key kid = ak_send c /\ nonempty (ak_send c) = true).
Proof.
  unfold doc_out. destruct (nonempty (ak_send c)) eqn:Hs; cbn [negb]; [|left; reflexivity].
  modes c; destruct (nonempty key); destruct (listed c key kid); cbn [andb negb]; auto.
Qed.

Lemma doc_out_nonblank c key kid : nonempty key = true -> nonempty (doc_out c key kid) = true.
Proof.
  intros Hk. destruct (doc_out_cases c key kid) as [E | [E Hs]]; rewrite E; assumption.
Qed.

Lemma is_accepted_spec c key kid : is_accepted c key kid = accept_spec c key kid.
Proof.
  unfold is_accepted, accept_spec, listed. destruct (ak_only_listed c); cbn [negb orb]; [|reflexivity].
  rewrite orb_assoc. reflexivity.
Qed.

(* why ExportTraceData's second check, made on the replaced key, is harmless *)
Lemma accepted_after_replace c kid_of key :
  is_accepted c key (key_id c kid_of key) = true ->
  is_accepted c (doc_out c key (key_id c kid_of key)) (key_id c kid_of (doc_out c key (key_id c kid_of key))) = true.
Proof.
  intros Ha. destruct (doc_out_cases c key (key_id c kid_of key)) as [E | [E Hs]]; rewrite E; [exact Ha|].
  unfold is_accepted. destruct (ak_only_listed c); [|reflexivity].
  rewrite Hs, String.eqb_refl. reflexivity.
Qed.

(* evaluated on Gen/GenC24.v: these stop compiling when the text of IsAccepted or GetReplaceKey, or the order
   of steps in an entry point, changes in the source *)
Lemma tables_ok_true : tables_ok = true.
Proof. vm_compute. reflexivity. Qed.
Lemma scripts_ok_true : scripts_ok = true.
Proof. vm_compute. reflexivity. Qed.

Definition s_v1 : list aop := [OpAccept; OpReplace true; OpAssign].
Definition s_lenient : list aop := [OpAccept; OpReplace false; OpValidate; OpAssign; OpTranslate].
Definition s_grpc_trace : list aop := [OpAccept; OpReplace true; OpAssign; OpTranslate; OpAccept].

Lemma script_eq e :
  script e = match e with
             | EV1Event | EV1Batch => s_v1
             | EOtlpTraceHttp | EOtlpLogsHttp | EGrpcLogs => s_lenient
             | EGrpcTrace => s_grpc_trace
             end.
Proof.
  (* the step names are those that [scripts_ok] finds in the source; [aop_of] reads them *)
  pose proof scripts_ok_true as H. unfold scripts_ok in H. rewrite !andb_true_iff in H.
  destruct H as [[[[H1 H2] H3] H4] H5]. apply (list_eqb_eq _ String.eqb_eq) in H1, H2, H3, H4, H5.
  unfold script. destruct e; cbn [script_text]; rewrite ?H1, ?H2, ?H3, ?H4, ?H5; reflexivity.
Qed.

(* After the two opening steps a script meets the specification if the rest sends an acceptable non-blank
   replacement as it is and, where a failed replacement is passed over, refuses the blank one. *)
Lemma run_spec pr c kid_of strict rest key :
  (forall k, is_accepted c k (key_id c kid_of k) = true -> nonempty k = true ->
             run pr c kid_of rest key k = Sent k) ->
  (strict = false -> run pr c kid_of rest key "" = Rejected) ->
  run pr c kid_of (OpAccept :: OpReplace strict :: rest) key key = spec c kid_of key.
Proof.
  intros Hk H0. unfold spec. cbn [run]. rewrite replace_table, <- is_accepted_spec.
  destruct (is_accepted c key (key_id c kid_of key)) eqn:Ha; [|reflexivity].
  destruct (nonempty (doc_out c key (key_id c kid_of key))) eqn:Hd.
  - apply Hk; [apply accepted_after_replace, Ha | exact Hd].
  - destruct strict; [reflexivity | apply H0; reflexivity].
Qed.

(* whatever husky's header validation says, the translation refuses exactly a blank key to use *)
Lemma run_validate_assign_translate pr c kid_of cur touse :
  run pr c kid_of [OpValidate; OpAssign; OpTranslate] cur touse = if nonempty touse then Sent touse else Rejected.
Proof. cbn. destruct pr, (nonempty cur), (nonempty touse) eqn:E; rewrite ?E; reflexivity. Qed.

Lemma run_v1 c kid_of key : run PV1 c kid_of s_v1 key key = spec c kid_of key.
Proof. apply run_spec; [reflexivity | discriminate]. Qed.

Lemma run_lenient pr c kid_of key : run pr c kid_of s_lenient key key = spec c kid_of key.
Proof.
  apply run_spec.
  - intros k _ Hk. rewrite run_validate_assign_translate, Hk. reflexivity.
  - intros _. apply run_validate_assign_translate.
Qed.

Lemma run_grpc_trace c kid_of key : run PGrpcTrace c kid_of s_grpc_trace key key = spec c kid_of key.
Proof. apply run_spec; [|discriminate]. intros k Ha Hk. cbn. rewrite Hk, Ha. reflexivity. Qed.

Theorem enter_spec e c kid_of key : enter e c kid_of key = spec c kid_of key.
Proof.
  unfold enter. rewrite script_eq.
  destruct e; cbn [proto_of]; auto using run_v1, run_lenient, run_grpc_trace.
Qed.

Lemma spec_sent c kid_of key k :
  spec c kid_of key = Sent k <->
  accept_spec c key (key_id c kid_of key) = true /\ k = doc_out c key (key_id c kid_of key) /\ k <> ""%string.
Proof.
  unfold spec. destruct (accept_spec c key (key_id c kid_of key)); cbn [andb].
  - destruct (nonempty (doc_out c key (key_id c kid_of key))) eqn:Hd.
    + apply nonempty_true in Hd. split; [intros [= <-]; auto | intros (_ & -> & _); reflexivity].
    + split; [discriminate|]. intros (_ & -> & H). apply nonempty_true in H. congruence.
  - split; [discriminate | intros [? _]; discriminate].
Qed.

(* [pinned_grpc_trace] checks acceptance last, on the key that has already been replaced: with
   AcceptOnlyListedKeys and SendKeyMode all, an unlisted key is let in and its data sent under SendKey *)
Definition witness_cfg : akcfg :=
  {| ak_receive := ["listed"%string]; ak_receive_ids := []; ak_send := "sendkey"; ak_mode := "all"; ak_only_listed := true |}.

Lemma pinned_grpc_trace_refuted :
  run PGrpcTrace witness_cfg (fun _ => ""%string) pinned_grpc_trace "intruder" "intruder" = Sent "sendkey"%string /\
  spec witness_cfg (fun _ => ""%string) "intruder" = Rejected.
Proof. vm_compute. split; reflexivity. Qed.
