(* The DirectTransmission model. Batching: every op keeps [inv] and conserves the stamped events; a batch leaves
   at most one ticker period after the last instant at which it was not overdue. The retry loop makes at most n
   attempts, a further one only when asked. Sending: the size loop cuts a batch into sub-batches within the limits. *)
From Refinery Require Import Lib.Base Model.Transmit.
From Coq Require Import Permutation.

Local Open Scope Z_scope.

Lemma aremove_notin {V} k (m : amap V) : ~ In k (akeys m) -> aremove k m = m.
Proof.
  intros H. apply aremove_absent. destruct (alookup k m) eqn:E; [|reflexivity].
  destruct H. apply In_akeys_alookup. rewrite E. discriminate.
Qed.

Definition dev (ds : list disp) : list (event * Z) := concat (map devs ds).

Lemma dev_cons d ds : dev (d :: ds) = devs d ++ dev ds.
Proof. reflexivity. Qed.

Lemma dev_app a b : dev (a ++ b) = dev a ++ dev b.
Proof. unfold dev. rewrite map_app. apply concat_app. Qed.

Lemma dev_disp_of w T p : dev (map (disp_of w T) p) = pending_events p.
Proof. unfold dev. rewrite map_map. reflexivity. Qed.

Lemma pending_events_cons k b p : pending_events ((k, b) :: p) = pevs b ++ pending_events p.
Proof. reflexivity. Qed.

Lemma pending_split k (p : amap pbatch) :
  NoDup (akeys p) -> Permutation (pending_events p) (pevs (batch_of k p) ++ pending_events (aremove k p)).
Proof.
  unfold batch_of. induction p as [|[k' b'] r IH]; intros Hnd; [reflexivity|].
  inversion Hnd as [|? ? Hn Hr]; subst. cbn [alookup aremove]. destruct (N.eqb_spec k k') as [<-|_].
  - rewrite (aremove_notin k r Hn). reflexivity.
  - rewrite !pending_events_cons, (IH Hr). apply Permutation_app_swap_app.
Qed.

Lemma pending_aset k nb (p : amap pbatch) l new :
  NoDup (akeys p) -> Permutation (pevs nb ++ l) (pevs (batch_of k p) ++ new) ->
  Permutation (pending_events (aset k nb p) ++ l) (pending_events p ++ new).
Proof.
  intros Hnd H. unfold aset. rewrite pending_events_cons, (pending_split k p Hnd).
  rewrite <- !app_assoc, (Permutation_app_comm _ l), (Permutation_app_comm _ new), !app_assoc.
  apply Permutation_app_tail, H.
Qed.

Section Batching.
  Variable c : tcfg.
  Hypothesis Hc : cfg_ok c = true.

  Lemma cfg_facts :
    5 <= slack c /\ slack c + maxEv c <= maxBody c /\ 0 <= maxEv c /\ (ntries c <= 2)%nat /\
    4 <= tdiv c /\ 1 <= maxBatch c /\ tdiv c <= bt c.
  Proof.
    unfold cfg_ok, consts_ok in Hc. rewrite !andb_true_iff, !Z.leb_le, Nat.leb_le in Hc. tauto.
  Qed.

  Lemma tickq_bounds : 0 < tickq c /\ 4 * tickq c <= bt c.
  Proof.
    pose proof cfg_facts as F. unfold tickq.
    pose proof (Z.div_str_pos (bt c) (tdiv c)). pose proof (Z.mul_div_le (bt c) (tdiv c)). nia.
  Qed.

  (* hi: the latest enqueue instant; lastT: the last tick instant, at which the batch was not overdue *)
  Definition timely (hi lastT : Z) (kb : N * pbatch) : Prop :=
    (forall et, In et (pevs (snd kb)) -> edest (fst et) = fst kb /\ pstart (snd kb) <= snd et <= hi) /\
    (pevs (snd kb) <> [] -> lastT - pstart (snd kb) < bt c).

  (* a pending batch is not full: a full batch leaves at once *)
  Definition batch_ok (hi lastT : Z) (kb : N * pbatch) : Prop :=
    timely hi lastT kb /\ Z.of_nat (length (pevs (snd kb))) < maxBatch c.

  Definition disp_ok (d : disp) : Prop :=
    (exists k, forall et, In et (devs d) -> edest (fst et) = k) /\
    (forall et, In et (devs d) -> snd et <= dtime d /\ dtime d - snd et < bt c + tickq c) /\
    Z.of_nat (length (devs d)) <= maxBatch c.

  (* [next s - tickq c] is the last instant at which the ticker fired (or the start): no pending batch was overdue then *)
  Record inv (s : tstate) : Prop := {
    inv_keys : NoDup (akeys (pend s));
    inv_next_gt : now s < next s;
    inv_next_le : next s <= now s + tickq c;
    inv_pend : Forall (batch_ok (now s) (next s - tickq c)) (pend s) }.

  Lemma inv_init t0 : inv (tinit c t0).
  Proof. pose proof tickq_bounds. unfold tinit. split; cbn [now next pend akeys map]; try constructor; lia. Qed.

  Lemma batch_ok_mono hi hi' lastT lastT' p :
    hi <= hi' -> lastT' <= lastT -> Forall (batch_ok hi lastT) p -> Forall (batch_ok hi' lastT') p.
  Proof.
    intros Hhi Hl. apply Forall_impl. intros kb [[Hev Hdue] Hlen]. split; [split|exact Hlen].
    - intros et Hin. specialize (Hev et Hin). lia.
    - intros Hne. specialize (Hdue Hne). lia.
  Qed.

  Lemma batch_ok_empty hi lastT k st : batch_ok hi lastT (k, {| pevs := []; pstart := st |}).
  Proof. pose proof cfg_facts. split; [split|]; cbn; [intros et []|congruence|lia]. Qed.

  Lemma batch_of_ok hi lastT k p : Forall (batch_ok hi lastT) p -> batch_ok hi lastT (k, batch_of k p).
  Proof.
    intros Hall. unfold batch_of. destruct (alookup k p) eqn:L; [|apply batch_ok_empty].
    rewrite Forall_forall in Hall. apply Hall, alookup_In, L.
  Qed.

  (* T is at most one ticker period after lastT: hence the bound BatchTimeout + BatchTimeout/tdiv on the age of an event *)
  Lemma dispatch_ok w T hi lastT kb :
    timely hi lastT kb -> Z.of_nat (length (pevs (snd kb))) <= maxBatch c ->
    hi <= T <= lastT + tickq c -> disp_ok (disp_of w T kb).
  Proof.
    intros [Hev Hdue] Hlen HT. unfold disp_ok. cbn [disp_of devs dtime].
    split; [exists (fst kb); intros et Hin; apply (Hev et Hin)|]. split; [|exact Hlen].
    intros et Hin. specialize (Hev et Hin). destruct (pevs (snd kb)); [destruct Hin|].
    specialize (Hdue ltac:(discriminate)). lia.
  Qed.

  Lemma timely_append hi lastT b e :
    batch_ok hi lastT (edest e, b) -> lastT <= hi ->
    timely hi lastT (edest e, {| pevs := pevs b ++ [(e, hi)];
                                 pstart := match pevs b with [] => hi | _ => pstart b end |}).
  Proof.
    pose proof cfg_facts as F. intros [[Hev Hdue] _] Hle. unfold timely. cbn [fst snd pevs pstart] in *.
    revert Hev Hdue. destruct (pevs b) as [|x l]; intros Hev Hdue.
    - split; [|lia]. intros et [<-|[]]. cbn. lia.
    - pose proof (Hev x (or_introl eq_refl)) as Hx. split; [|intros _; apply Hdue; discriminate].
      intros et Hin. apply in_app_or in Hin. destruct Hin as [Hin|[<-|[]]]; [exact (Hev et Hin)|cbn; lia].
  Qed.

  Definition conserves (s : tstate) (new : list (event * Z)) (s' : tstate) (ds : list disp) : Prop :=
    inv s' /\ Forall disp_ok ds /\
    Permutation (pending_events (pend s') ++ dev ds) (pending_events (pend s) ++ new).

  Lemma conserves_refl s : inv s -> conserves s [] s [].
  Proof. intros H. split; [exact H|]. split; [constructor|reflexivity]. Qed.

  Lemma conserves_trans s n1 s1 d1 n2 s2 d2 :
    conserves s n1 s1 d1 -> conserves s1 n2 s2 d2 -> conserves s (n1 ++ n2) s2 (d1 ++ d2).
  Proof.
    intros (_ & D1 & P1) (I2 & D2 & P2). split; [exact I2|]. split; [apply Forall_app; auto|].
    rewrite dev_app, (Permutation_app_comm (dev d1)), !app_assoc, P2, <- P1, <- !app_assoc.
    apply Permutation_app_head, Permutation_app_comm.
  Qed.

  Lemma conserves_aset s k nb new ds :
    inv s -> batch_ok (now s) (next s - tickq c) (k, nb) -> Forall disp_ok ds ->
    Permutation (pevs nb ++ dev ds) (pevs (batch_of k (pend s)) ++ new) ->
    conserves s new {| now := now s; next := next s; pend := aset k nb (pend s) |} ds.
  Proof.
    intros [Hnd Hlt Hle Hall] Hnb Hds HP. split; [|split; [exact Hds|apply pending_aset; assumption]].
    split; cbn [now next pend]; [apply NoDup_akeys_aset, Hnd|exact Hlt|exact Hle|].
    constructor; [exact Hnb|]. exact (incl_Forall (incl_aremove k _) Hall).
  Qed.

  Lemma enq_spec s e :
    inv s -> let '(s', ds) := enq c s e in conserves s [(e, now s)] s' ds /\ now s' = now s.
  Proof.
    intros Hinv. pose proof Hinv as [Hnd Hlt Hle Hall].
    pose proof (batch_of_ok _ _ (edest e) _ Hall) as Hb.
    pose proof (timely_append _ _ _ e Hb ltac:(lia)) as Hnb.
    unfold enq. set (b := batch_of (edest e) (pend s)) in *.
    set (st := match pevs b with [] => now s | _ => pstart b end) in *.
    set (evs := pevs b ++ [(e, now s)]) in *.
    destruct (maxBatch c <=? Z.of_nat (length evs)) eqn:Efull; (split; [|reflexivity]).
    - apply conserves_aset; [exact Hinv|apply batch_ok_empty| |cbn; rewrite app_nil_r; reflexivity].
      constructor; [|constructor].
      apply (dispatch_ok Full (now s) _ _ (edest e, {| pevs := evs; pstart := st |}) Hnb); [|lia].
      destruct Hb as [_ Hlen]. unfold evs. cbn [snd pevs] in *. rewrite app_length. cbn [length]. lia.
    - apply Z.leb_gt in Efull.
      apply conserves_aset; [exact Hinv|exact (conj Hnb Efull)|constructor|cbn; rewrite app_nil_r; reflexivity].
  Qed.

  Lemma akeys_map_clear T p : akeys (map (clear_stale c T) p) = akeys p.
  Proof.
    unfold akeys. rewrite map_map. apply map_ext. intros kb. unfold clear_stale. destruct (stale c T kb); reflexivity.
  Qed.

  Lemma clear_stale_ok hi lastT T p :
    Forall (batch_ok hi lastT) p -> Forall (batch_ok hi T) (map (clear_stale c T) p).
  Proof.
    intros Hall. apply Forall_map. revert Hall. apply Forall_impl. intros kb [[Hev _] Hlen].
    unfold clear_stale. destruct (stale c T kb) eqn:Es; [apply batch_ok_empty|]. unfold stale in Es.
    split; [split|]; try assumption. intros Hne. destruct (pevs (snd kb)); [congruence|]. apply Z.leb_gt in Es. lia.
  Qed.

  Lemma dispatch_all_ok w T hi lastT f p :
    Forall (batch_ok hi lastT) p -> hi <= T <= lastT + tickq c -> Forall disp_ok (map (disp_of w T) (filter f p)).
  Proof.
    intros Hall HT. apply Forall_map, (incl_Forall (incl_filter f p)). revert Hall. apply Forall_impl.
    intros kb [Ht Hlen]. apply (dispatch_ok w T hi lastT kb Ht); lia.
  Qed.

  Lemma pending_clear_stale T p :
    Permutation (pending_events (map (clear_stale c T) p) ++ pending_events (filter (stale c T) p)) (pending_events p).
  Proof.
    induction p as [|[k b] r IH]; [reflexivity|]. cbn [map filter]. unfold clear_stale at 1.
    destruct (stale c T (k, b)); rewrite !pending_events_cons; cbn [fst snd pevs app].
    - rewrite <- IH. apply Permutation_app_swap_app.
    - rewrite <- app_assoc, IH. reflexivity.
  Qed.

  (* n ticker passes at T, T + tickq, ...; the last one fires at T + n * tickq - tickq, which takes the place of
     lastT. In the step the pass at T has just cleared the stale batches, so the induction hypothesis is used with
     T as the last instant and T + tickq as the next. *)
  Lemma ticks_spec n : forall hi lastT T p,
    hi <= T <= lastT + tickq c -> Forall (batch_ok hi lastT) p -> NoDup (akeys p) ->
    let '(p', o) := ticks c n T p in
    Forall (batch_ok hi (T + Z.of_nat n * tickq c - tickq c)) p' /\ Forall disp_ok o /\ NoDup (akeys p') /\
    Permutation (pending_events p' ++ dev o) (pending_events p).
  Proof.
    pose proof tickq_bounds as Hq.
    induction n as [|n IH]; intros hi lastT T p HT Hall Hnd; cbn [ticks tick].
    - split; [revert Hall; apply batch_ok_mono; lia|]. split; [constructor|]. split; [exact Hnd|].
      cbn. rewrite app_nil_r. reflexivity.
    - rewrite <- (akeys_map_clear T p) in Hnd.
      specialize (IH hi T (T + tickq c) _ ltac:(lia) (clear_stale_ok hi lastT T p Hall) Hnd).
      destruct (ticks c n (T + tickq c) _) as [p2 o2]. destruct IH as (I1 & I2 & I3 & I4).
      split; [revert I1; apply batch_ok_mono; lia|]. split; [|split; [exact I3|]].
      + apply Forall_app. split; [apply (dispatch_all_ok _ _ hi lastT); assumption|exact I2].
      + rewrite dev_app, dev_disp_of, <- (pending_clear_stale T p), <- I4, <- !app_assoc.
        apply Permutation_app_head, Permutation_app_comm.
  Qed.

  Lemma nticks_spec s d :
    next s <= now s + tickq c -> 0 <= d ->
    now s + d < next s + Z.of_nat (nticks c s d) * tickq c <= now s + d + tickq c.
  Proof.
    intros Hle Hd. pose proof tickq_bounds as Hq.
    unfold nticks. destruct (Z.leb_spec (next s) (now s + d)) as [E|E]; [|lia].
    set (x := now s + d - next s) in *. pose proof (Z.div_pos x (tickq c)).
    pose proof (Z.div_mod x (tickq c)). pose proof (Z.mod_pos_bound x (tickq c)).
    rewrite Z2Nat.id by lia. nia.
  Qed.

  Lemma adv_spec s d :
    inv s -> 0 <= d -> let '(s', ds) := adv c s d in conserves s [] s' ds /\ now s' = now s + d.
  Proof.
    intros [Hnd Hlt Hle Hall] Hd. pose proof (nticks_spec s d Hle Hd) as Hn.
    unfold adv. set (n := nticks c s d) in *.
    pose proof (ticks_spec n (now s) (next s - tickq c) (next s) (pend s) ltac:(lia) Hall Hnd) as Ht.
    destruct (ticks c n (next s) (pend s)) as [p o]. destruct Ht as (T1 & T2 & T3 & T4).
    split; [|reflexivity]. split; [|split; [exact T2|rewrite app_nil_r; exact T4]].
    split; cbn [now next pend]; [exact T3|lia|lia|]. revert T1. apply batch_ok_mono; lia.
  Qed.

  Lemma pending_nonempty p : pending_events (filter nonempty p) = pending_events p.
  Proof.
    induction p as [|[k b] r IH]; [reflexivity|]. cbn [filter]. unfold nonempty at 1. cbn [snd].
    rewrite pending_events_cons, <- IH. destruct (pevs b) eqn:E; [reflexivity|]. rewrite pending_events_cons, E. reflexivity.
  Qed.

  Lemma stop_spec s : inv s -> let '(s', ds) := stop s in conserves s [] s' ds /\ now s' = now s.
  Proof.
    intros [Hnd Hlt Hle Hall]. unfold stop.
    split; [|reflexivity]. split; [split; cbn [now next pend]; [constructor|exact Hlt|exact Hle|constructor]|]. split.
    - apply (dispatch_all_ok _ _ _ _ _ _ Hall). lia.
    - rewrite dev_disp_of, pending_nonempty, app_nil_r. reflexivity.
  Qed.

  (* the second conjunct carries [stamps] through a run; [new] are the events the step enqueues *)
  Lemma tstep_spec s o :
    inv s -> op_ok o = true ->
    let '(s1, d1, _) := tstep c s o in
    exists new, conserves s new s1 d1 /\ forall r, stamps (now s) (o :: r) = new ++ stamps (now s1) r.
  Proof.
    intros Hinv Ho. destruct o as [e|d| |]; cbn [tstep stamps].
    - pose proof (enq_spec s e Hinv) as H. destruct (enq c s e) as [s1 d1]. destruct H as [H ->].
      exists [(e, now s)]. split; [exact H|reflexivity].
    - apply Z.leb_le in Ho. pose proof (adv_spec s d Hinv Ho) as H. destruct (adv c s d) as [s1 d1].
      destruct H as [H ->]. exists []. split; [exact H|reflexivity].
    - (* Sync *) exists []. split; [apply conserves_refl, Hinv|reflexivity].
    - pose proof (stop_spec s Hinv) as H. destruct (stop s) as [s1 d1]. destruct H as [H ->].
      exists []. split; [exact H|reflexivity].
  Qed.

  Lemma trun_spec ops : forall s,
    inv s -> ops_ok ops = true ->
    let '(s', ds, _) := trun c s ops in conserves s (stamps (now s) ops) s' ds.
  Proof.
    induction ops as [|o r IH]; intros s Hinv Hok; cbn [trun].
    - apply conserves_refl, Hinv.
    - cbn [ops_ok forallb] in Hok. apply andb_true_iff in Hok. destruct Hok as [Ho Hr].
      pose proof (tstep_spec s o Hinv Ho) as H. destruct (tstep c s o) as [[s1 d1] y1].
      destruct H as (new & H1 & ->). specialize (IH s1 (proj1 H1) Hr).
      destruct (trun c s1 r) as [[s2 d2] y2]. exact (conserves_trans _ _ _ _ _ _ _ H1 IH).
  Qed.

  Lemma trun_stop_empty ops s :
    let '(s', _, _) := trun c s (ops ++ [Stop]) in pend s' = [].
  Proof.
    revert s. induction ops as [|o r IH]; intros s; [reflexivity|].
    cbn [app trun]. destruct (tstep c s o) as [[s1 d1] y1]. specialize (IH s1).
    destruct (trun c s1 (r ++ [Stop])) as [[s2 d2] y2]. exact IH.
  Qed.
End Batching.

(* the part of [body_size] behind the array header *)
Definition ssum (l : list event) : Z := fold_right (fun e a => esize e + a) 0 l.

Lemma In_concat_length {A} (x : list A) (l : list (list A)) : In x l -> (length x <= length (concat l))%nat.
Proof.
  induction l as [|y r IH]; intros H; [destruct H|]. cbn [concat]. rewrite app_length.
  destruct H as [->|H]; [lia|]. specialize (IH H). lia.
Qed.

Lemma stamps_fst t ops : map fst (stamps t ops) = enqueued ops.
Proof.
  revert t. induction ops as [|o r IH]; intros t; [reflexivity|].
  destruct o; cbn [stamps enqueued flat_map map fst app]; unfold enqueued in IH; rewrite ?IH; reflexivity.
Qed.

Lemma first_dest_const k sub : (forall e, In e sub -> edest e = k) -> sub <> [] -> first_dest sub = k.
Proof. destruct sub as [|x l]; [congruence|]. intros H _. apply H. left. reflexivity. Qed.

(* the responses after which the retry loop makes another attempt if it has one left *)
Definition goes_on (c : tcfg) (r : resp) : bool :=
  match r with
  | RTimeout => true
  | RNetErr => false
  | RHttp code sl _ => retryable_status code && (0 <? sl) && (sl <? retryLim c)
  end.

Lemma tries_attempts c n rs :
  fst (fst (tries c (S n) rs)) =
  match n with
  | O => 1%N
  | S _ => if goes_on c (hd RNetErr rs) then N.succ (fst (fst (tries c n (tl rs)))) else 1%N
  end.
Proof.
  (* [tries] prepares the further attempts before it looks at the response; once n and the head of rs are known
     both sides compute *)
  cbn [tries]. destruct n as [|n].
  - destruct rs as [|[| |code sl sts] rest]; cbn [hd goes_on]; try reflexivity. destruct (_ && _); reflexivity.
  - destruct (tries c (S n) (tl rs)) as [[a sls] l].
    destruct rs as [|[| |code sl sts] rest]; cbn [hd goes_on]; try reflexivity. destruct (_ && _); reflexivity.
Qed.

Lemma tries_le c n : forall rs, (fst (fst (tries c n rs)) <= N.of_nat n)%N.
Proof.
  induction n as [|n IH]; intros rs; [cbn; lia|]. rewrite tries_attempts. specialize (IH (tl rs)).
  destruct n; [lia|]. destruct (goes_on c _); lia.
Qed.

Lemma c26_retry_bound c rs : (fst (fst (tries c (ntries c) rs)) <= N.of_nat (ntries c))%N.
Proof. apply tries_le. Qed.

Lemma retry_only_when_asked c n r0 rest :
  (1 < fst (fst (tries c n (r0 :: rest))))%N ->
  r0 = RTimeout \/ exists code sl sts, r0 = RHttp code sl sts /\ (code = 429 \/ code = 503) /\ 0 < sl < retryLim c.
Proof.
  destruct n; [cbn; lia|]. rewrite tries_attempts. cbn [hd]. destruct n; [lia|].
  destruct (goes_on c r0) eqn:E; [intros _|lia].
  destruct r0 as [| |code sl sts]; [left; reflexivity|discriminate|]. right. exists code, sl, sts. split; [reflexivity|].
  unfold goes_on, retryable_status in E. rewrite !andb_true_iff, orb_true_iff, !Z.eqb_eq, !Z.ltb_lt in E. lia.
Qed.

Section Sending.
  Variable c : tcfg.
  Hypothesis Hc : cfg_ok c = true.

  Lemma take_sub_spec : forall evs acc,
    let '(s, o, rest) := take_sub c acc evs in
    Permutation evs (s ++ o ++ rest) /\
    Forall (fun e => esize e <= maxEv c) s /\ Forall (fun e => maxEv c < esize e) o /\
    (acc <= maxBody c -> acc + ssum s <= maxBody c).
  Proof.
    induction evs as [|e r IH]; intros acc; cbn [take_sub].
    - repeat split; try constructor; cbn; lia.
    - destruct (Z.ltb_spec (maxEv c) (esize e)) as [Eo|Eo]; [|destruct (Z.ltb_spec (maxBody c) (acc + esize e)) as [Eb|Eb]].
      + (* oversize: dropped *)
        specialize (IH acc). destruct (take_sub c acc r) as [[s o] rest]. destruct IH as (I1 & I2 & I3 & I4).
        split; [apply Permutation_cons_app; exact I1|]. split; [exact I2|]. split; [constructor; assumption|exact I4].
      + (* does not fit: the pass ends *)
        split; [reflexivity|]. split; [constructor|]. split; [constructor|]. cbn. lia.
      + (* fits *)
        specialize (IH (acc + esize e)). destruct (take_sub c (acc + esize e) r) as [[s o] rest].
        destruct IH as (I1 & I2 & I3 & I4).
        split; [cbn [app]; constructor; exact I1|]. split; [constructor; assumption|]. split; [exact I3|].
        cbn [ssum fold_right]. unfold ssum in I4. lia.
  Qed.

  Lemma take_sub_rest_le evs acc : (length (snd (take_sub c acc evs)) <= length evs)%nat.
  Proof.
    pose proof (take_sub_spec evs acc) as H. destruct (take_sub c acc evs) as [[s o] rest]. destruct H as [P _].
    apply Permutation_length in P. rewrite !app_length in P. cbn [snd]. lia.
  Qed.

  Lemma take_sub_progress e r acc :
    acc + maxEv c <= maxBody c -> (length (snd (take_sub c acc (e :: r))) <= length r)%nat.
  Proof.
    intros Hroom. cbn [take_sub].
    destruct (Z.ltb_spec (maxEv c) (esize e)) as [_|Eo].
    - pose proof (take_sub_rest_le r acc) as H. destruct (take_sub c acc r) as [[s o] rest]. exact H.
    - destruct (Z.ltb_spec (maxBody c) (acc + esize e)) as [Eb|_]; [lia|].
      pose proof (take_sub_rest_le r (acc + esize e)) as H.
      destruct (take_sub c (acc + esize e) r) as [[s o] rest]. exact H.
  Qed.

  Definition sub_ok (sub : list event) : Prop :=
    sub <> [] /\ slack c + ssum sub <= maxBody c /\ Forall (fun e => esize e <= maxEv c) sub.

  (* every pass over a non-empty rest removes an event (one of at most maxEv bytes fits behind the slack), so fuel
     above the number of events is enough *)
  Lemma split_spec : forall fuel evs,
    (length evs < fuel)%nat ->
    exists subs os, split c fuel evs = Some (subs, os) /\
      Permutation evs (concat subs ++ os) /\ Forall sub_ok subs /\ Forall (fun e => maxEv c < esize e) os.
  Proof.
    pose proof (cfg_facts c Hc) as F.
    induction fuel as [|f IH]; intros evs Hlen; [lia|].
    destruct evs as [|e r]; [exists [], []; repeat split; constructor|].
    cbn [split]. pose proof (take_sub_spec (e :: r) (slack c)) as Ht.
    pose proof (take_sub_progress e r (slack c) ltac:(lia)) as Hless.
    destruct (take_sub c (slack c) (e :: r)) as [[s o] rest]. destruct Ht as (T1 & T2 & T3 & T4). cbn [snd length] in *.
    destruct (IH rest ltac:(lia)) as (subs & os & -> & P1 & P2 & P3).
    exists (match s with [] => subs | _ => s :: subs end), (o ++ os).
    split; [reflexivity|]. split; [|split; [|apply Forall_app; auto]].
    - replace (concat (match s with [] => subs | _ => s :: subs end)) with (s ++ concat subs) by (destruct s; reflexivity).
      rewrite T1, P1, <- !app_assoc. apply Permutation_app_head, Permutation_app_swap_app.
    - destruct s as [|x l]; [exact P2|]. constructor; [|exact P2].
      split; [discriminate|]. split; [apply T4; lia|exact T2].
  Qed.

  Lemma hdr_len_le n : hdr_len n <= 5.
  Proof. unfold hdr_len. destruct (n <? 16); [lia|]. destruct (n <? 65536); lia. Qed.

  Lemma body_size_le sub : sub_ok sub -> body_size sub <= maxBody c.
  Proof.
    pose proof (cfg_facts c Hc) as F. intros (_ & H & _). unfold body_size. fold (ssum sub).
    pose proof (hdr_len_le (Z.of_nat (length sub))). lia.
  Qed.

  Lemma account_downs nev a l : downs (account nev a l) = Z.of_nat nev.
  Proof. unfold account. destruct l as [| |code sl sts]; try reflexivity. destruct (code =? 200); reflexivity. Qed.

  Lemma downs_cadd a b : downs (cadd a b) = downs a + downs b.
  Proof. reflexivity. Qed.

  Variable beh : N -> list resp.
  Variable bad : N -> bool.

  (* the 2 is the bound [consts_ok] puts on [ntries c] *)
  Definition req_base (T : Z) (q : request) : Prop :=
    rq_time q = T /\ rq_dest q = first_dest (rq_evs q) /\ rq_size q = body_size (rq_evs q) /\ (rq_attempts q <= 2)%N.

  Lemma send_sub_spec T sub :
    let '(q, _, k) := send_sub c beh bad T sub in
    rq_evs q = sub /\ req_base T q /\ downs k = Z.of_nat (length sub).
  Proof.
    pose proof (cfg_facts c Hc) as F. unfold send_sub, req_base. destruct (bad (first_dest sub)).
    - cbn [rq_evs rq_time rq_dest rq_size rq_attempts]. rewrite account_downs. repeat split; lia.
    - pose proof (tries_le c (ntries c) (beh (first_id sub))) as Ht.
      destruct (tries c (ntries c) (beh (first_id sub))) as [[a sl] l].
      cbn [fst rq_evs rq_time rq_dest rq_size rq_attempts] in *. rewrite account_downs. repeat split; lia.
  Qed.

  Lemma send_subs_spec T subs :
    let '(qs, _, k) := send_subs c beh bad T subs in
    map rq_evs qs = subs /\ Forall (req_base T) qs /\ downs k = Z.of_nat (length (concat subs)).
  Proof.
    induction subs as [|s r IH]; [cbn; repeat split; constructor|].
    cbn [send_subs]. pose proof (send_sub_spec T s) as Hs. destruct (send_sub c beh bad T s) as [[q1 s1] k1].
    destruct (send_subs c beh bad T r) as [[q2 s2] k2]. destruct Hs as (<- & S2 & S3).
    destruct IH as (<- & I2 & I3). cbn [map concat]. split; [reflexivity|]. split; [constructor; assumption|].
    rewrite downs_cadd, S3, I3, app_length. lia.
  Qed.

  (* what C26 says about one request q, given the batches ds of the run *)
  Definition req_ok (ds : list disp) (q : request) : Prop :=
    rq_evs q <> [] /\
    (forall e, In e (rq_evs q) -> edest e = rq_dest q /\ esize e <= maxEv c) /\
    rq_size q <= maxBody c /\
    Z.of_nat (length (rq_evs q)) <= maxBatch c /\
    (rq_attempts q <= 2)%N /\
    exists d, In d ds /\ rq_time q = dtime d /\
      forall e, In e (rq_evs q) -> exists t, In (e, t) (devs d) /\ t <= rq_time q /\ 4 * (rq_time q - t) < 5 * bt c.

  (* an event waits less than BatchTimeout plus one ticker period, which is at most 5/4 BatchTimeout *)
  Lemma req_ok_sub ds d q :
    In d ds -> disp_ok c d -> req_base (dtime d) q -> sub_ok (rq_evs q) -> incl (rq_evs q) (map fst (devs d)) ->
    (length (rq_evs q) <= length (devs d))%nat -> req_ok ds q.
  Proof.
    intros Hds ((kd & Hk) & Htime & Hlen) (B1 & B2 & B3 & B4) Hsub Hincl Hl.
    pose proof (tickq_bounds c Hc) as Hq. pose proof Hsub as (O1 & _ & O3). rewrite Forall_forall in O3.
    assert (Hst : forall e, In e (rq_evs q) -> exists t, In (e, t) (devs d)).
    { intros e He. apply Hincl, in_map_iff in He. destruct He as ([e' t] & <- & Hi). exists t. exact Hi. }
    assert (Hd : forall e, In e (rq_evs q) -> edest e = kd).
    { intros e He. destruct (Hst e He) as (t & Hi). exact (Hk _ Hi). }
    split; [exact O1|]. split; [|split; [|split; [|split; [exact B4|]]]].
    - intros e He. rewrite B2, (first_dest_const kd _ Hd O1). split; [exact (Hd e He)|exact (O3 e He)].
    - rewrite B3. apply body_size_le, Hsub.
    - lia.
    - exists d. split; [exact Hds|]. split; [exact B1|]. intros e He. destruct (Hst e He) as (t & Hi).
      exists t. split; [exact Hi|]. specialize (Htime _ Hi). cbn [snd] in Htime. lia.
  Qed.

  Lemma send_disp_spec ds d :
    In d ds -> disp_ok c d ->
    exists qs sl k os, send_disp c beh bad d = Some (qs, sl, k, os) /\
      Permutation (map fst (devs d)) (concat (map rq_evs qs) ++ os) /\
      Forall (req_ok ds) qs /\ Forall (fun e => maxEv c < esize e) os /\
      downs k = Z.of_nat (length (devs d)).
  Proof.
    intros Hds Hd. unfold send_disp, split_all.
    destruct (split_spec _ (map fst (devs d)) (Nat.lt_succ_diag_r _)) as (subs & os & -> & P1 & P2 & P3).
    pose proof (send_subs_spec (dtime d) subs) as Hs.
    destruct (send_subs c beh bad (dtime d) subs) as [[qs sl] k]. destruct Hs as (<- & S2 & S3).
    pose proof (Permutation_length P1) as Hpl. rewrite map_length, app_length in Hpl.
    do 4 eexists. split; [reflexivity|]. split; [exact P1|]. split; [|split; [exact P3|]].
    - rewrite Forall_forall in *. intros q Hq. pose proof (in_map rq_evs _ _ Hq) as Hin.
      apply (req_ok_sub ds d); auto.
      + intros e He. apply (Permutation_in e (Permutation_sym P1)), in_or_app. left. apply in_concat. eauto.
      + pose proof (In_concat_length _ _ Hin). lia.
    - rewrite downs_cadd, S3. cbn [oversize_counters downs]. lia.
  Qed.

  (* ds0: all the batches of the run, of which ds are those still to be sent *)
  Lemma send_all_spec ds0 ds :
    incl ds ds0 -> Forall (disp_ok c) ds ->
    exists qs sl k os, send_all c beh bad ds = Some (qs, sl, k, os) /\
      Permutation (map fst (dev ds)) (concat (map rq_evs qs) ++ os) /\
      Forall (req_ok ds0) qs /\ Forall (fun e => maxEv c < esize e) os /\
      downs k = Z.of_nat (length (dev ds)).
  Proof.
    induction ds as [|d r IH]; intros Hi Hall; [exists [], [], czero, []; repeat split; constructor|].
    apply incl_cons_inv in Hi. inversion Hall as [|? ? Hd Hr]; subst.
    destruct (IH (proj2 Hi) Hr) as (q2 & s2 & k2 & o2 & E2 & P2 & R2 & O2 & D2).
    destruct (send_disp_spec ds0 d (proj1 Hi) Hd) as (q1 & s1 & k1 & o1 & E1 & P1 & R1 & O1 & D1).
    cbn [send_all]. rewrite E1, E2. do 4 eexists. split; [reflexivity|].
    split; [|split; [apply Forall_app; auto|split; [apply Forall_app; auto|]]].
    - rewrite dev_cons, !map_app, concat_app, P1, P2, <- !app_assoc.
      apply Permutation_app_head, Permutation_app_swap_app.
    - rewrite downs_cadd, D1, D2, dev_cons, app_length. lia.
  Qed.

  Theorem run_spec t0 ops :
    ops_ok ops = true ->
    exists r ds, run c beh bad t0 ops = Some r /\
      (* exactly once *)
      Permutation (enqueued ops) (concat (map rq_evs (r_reqs r)) ++ r_over r ++ map fst (r_pending r)) /\
      (* every stamp is the enqueue instant *)
      (forall et, In et (dev ds) -> In et (stamps t0 ops)) /\
      Forall (req_ok ds) (r_reqs r) /\
      Forall (fun e => maxEv c < esize e) (r_over r) /\
      (* gauge *)
      r_ups r - downs (r_cnt r) = Z.of_nat (length (r_pending r)).
  Proof.
    intros Hok. unfold run.
    pose proof (trun_spec c Hc ops (tinit c t0) (inv_init c Hc t0) Hok) as Ht.
    destruct (trun c (tinit c t0) ops) as [[s ds] ys]. destruct Ht as (_ & T2 & T3). cbn in T3.
    destruct (send_all_spec ds ds (incl_refl ds) T2) as (qs & sl & k & os & -> & P & R & O & D).
    eexists. exists ds. split; [reflexivity|]. cbn [r_reqs r_over r_pending r_cnt r_ups].
    split; [|split; [|split; [exact R|split; [exact O|]]]].
    - rewrite <- (stamps_fst t0 ops), <- T3, map_app, P. apply Permutation_app_rot.
    - intros et Hin. apply (Permutation_in et T3), in_or_app. right. exact Hin.
    - rewrite D. apply Permutation_length in T3. rewrite app_length in T3.
      rewrite <- (stamps_fst t0 ops), map_length. lia.
  Qed.

  Theorem run_stop_spec t0 ops :
    ops_ok ops = true ->
    exists r, run c beh bad t0 (ops ++ [Stop]) = Some r /\ r_pending r = [] /\
      Permutation (enqueued ops) (concat (map rq_evs (r_reqs r)) ++ r_over r) /\
      r_ups r - downs (r_cnt r) = 0.
  Proof.
    intros Hok.
    assert (Hok' : ops_ok (ops ++ [Stop]) = true).
    { unfold ops_ok in *. rewrite forallb_app, Hok. reflexivity. }
    destruct (run_spec t0 (ops ++ [Stop]) Hok') as (r & ds & E & P & _ & _ & _ & G).
    exists r. split; [exact E|].
    assert (Hp : r_pending r = []).
    { unfold run in E. pose proof (trun_stop_empty c ops (tinit c t0)) as Hs.
      destruct (trun c (tinit c t0) (ops ++ [Stop])) as [[s ds'] ys].
      destruct (send_all c beh bad ds') as [[[[q sl] k] os]|]; [|discriminate].
      injection E as <-. cbn [r_pending]. rewrite Hs. reflexivity. }
    split; [exact Hp|]. rewrite Hp in P, G. cbn [map length] in P, G. rewrite !app_nil_r in P.
    unfold enqueued in P. rewrite flat_map_app in P. cbn [flat_map] in P. rewrite app_nil_r in P.
    split; [exact P|exact G].
  Qed.
End Sending.

Lemma gen_cfg_ok mb b : 1 <= mb -> 4 <= b -> cfg_ok (gen_cfg mb b) = true.
Proof.
  intros Hm Hb. unfold cfg_ok.
  (* neither [consts_ok] nor [tdiv] reads maxBatch or bt, so both evaluate on the generated constants with mb and b free *)
  assert (Hk : consts_ok (gen_cfg mb b) = true) by (vm_compute; reflexivity).
  assert (Hd : tdiv (gen_cfg mb b) = 4) by (vm_compute; reflexivity).
  rewrite Hk, Hd. cbn [gen_cfg maxBatch bt andb]. apply andb_true_iff. split; apply Z.leb_le; assumption.
Qed.

Lemma gen_shape_holds : gen_shape_ok = true.
Proof. vm_compute. reflexivity. Qed.

(* [run_stop_spec] at the configuration read from the source: the form in which both C26 and C36 state the flush *)
Lemma c26_stop (mb b : Z) (beh : N -> list resp) (bad : N -> bool) (t0 : Z) (ops : list top) :
  1 <= mb -> 4 <= b -> ops_ok ops = true ->
  exists r, run (gen_cfg mb b) beh bad t0 (ops ++ [Stop]) = Some r /\ r_pending r = [] /\
    Permutation (enqueued ops) (concat (map rq_evs (r_reqs r)) ++ r_over r) /\
    r_ups r - downs (r_cnt r) = 0.
Proof. intros Hm Hb. apply run_stop_spec, gen_cfg_ok; assumption. Qed.
