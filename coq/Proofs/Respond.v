(* C23 (Model/Respond.v).  The trace of every handler is either a refusal (one error report and no effect) or
   the event loop followed by the endpoint's success answer; [handle_obs_ok] reads [obs_ok], the property as a
   whole, off these two shapes, and the clauses and the monitor's verdict follow from it.  At the end, requests on
   which the parameters of the upstream revision the finding was made on ([pinned_params]) break three clauses. *)
From Refinery Require Import Lib.Base Gen.GenC23 Model.Respond.

Lemma doc_eqb_refl d : doc_eqb d d = true.
Proof. destruct d; cbn; try reflexivity. apply list_eqb_refl, N.eqb_refl. Qed.

Lemma hdrs_app a b : hdrs_of (a ++ b) = hdrs_of a ++ hdrs_of b.
Proof. apply flat_map_app. Qed.
Lemma docs_app a b : docs_of (a ++ b) = docs_of a ++ docs_of b.
Proof. apply flat_map_app. Qed.
Lemma adds_app a b : adds_of (a ++ b) = adds_of a ++ adds_of b.
Proof. apply flat_map_app. Qed.
Lemma ups_app a b : ups_of (a ++ b) = ups_of a ++ ups_of b.
Proof. apply flat_map_app. Qed.
Lemma peers_app a b : peers_of (a ++ b) = peers_of a ++ peers_of b.
Proof. apply flat_map_app. Qed.

Definition quiet_act (a : action) : bool := match a with AHdr _ | ADoc _ => false | _ => true end.
Definition quiet (tr : list action) : Prop := forallb quiet_act tr = true.

Lemma quiet_app a b : quiet a -> quiet b -> quiet (a ++ b).
Proof. unfold quiet. intros Ha Hb. rewrite forallb_app, Ha, Hb. reflexivity. Qed.

Lemma quiet_writes_nothing a k : quiet a ->
  first_status (a ++ k) = first_status k /\ implicit_status (a ++ k) = implicit_status k /\
  hdrs_of a = [] /\ docs_of a = [].
Proof.
  unfold quiet. induction a as [|x a IH]; cbn; [auto|].
  intros H. apply andb_true_iff in H as [Hx Ha]. destruct x; try discriminate; exact (IH Ha).
Qed.

Lemma observe_quiet_app acts k : quiet acts ->
  observe (acts ++ k) =
  {| ob_status := ob_status (observe k); ob_hdr_calls := ob_hdr_calls (observe k); ob_docs := ob_docs (observe k);
     ob_adds := adds_of acts ++ adds_of k; ob_up := ups_of acts ++ ups_of k; ob_peer := peers_of acts ++ peers_of k |}.
Proof.
  intros Q. destruct (quiet_writes_nothing acts k Q) as (Hs & Hi & Hh & Hd). unfold observe. cbn.
  rewrite Hs, Hi, hdrs_app, docs_app, adds_app, ups_app, peers_app, Hh, Hd. reflexivity.
Qed.

Lemma event_loop_ind (P : list (N * evclass) -> list bool -> list action -> list outcome -> Prop) :
  (forall a, P [] a [] []) ->
  (forall id c evs a acts o a' ar outs,
     process_event id c a = (acts, o, a') -> P evs a' ar outs -> P ((id, c) :: evs) a (acts ++ ar) (o :: outs)) ->
  forall evs a acts outs, event_loop evs a = (acts, outs) -> P evs a acts outs.
Proof.
  intros H0 Hs. induction evs as [|[id c] evs IH]; intros a acts outs H; cbn in H.
  - injection H as <- <-. apply H0.
  - destruct (process_event id c a) as [[acts1 o] a'] eqn:Hp. destruct (event_loop evs a') as [ar outs'] eqn:Hl.
    injection H as <- <-. eauto.
Qed.

Lemma process_event_quiet id c a acts o a' : process_event id c a = (acts, o, a') -> quiet acts.
Proof.
  unfold process_event. destruct c, (next_admit a); intros [= <- _ _]; reflexivity.
Qed.

Lemma event_loop_quiet : forall evs a acts outs, event_loop evs a = (acts, outs) -> quiet acts.
Proof.
  apply event_loop_ind; [reflexivity|]. intros. eauto using quiet_app, process_event_quiet.
Qed.

Lemma event_loop_replay : forall evs a acts outs,
  event_loop evs a = (acts, outs) ->
  replay evs (adds_of acts) (ups_of acts) (peers_of acts) = Some outs.
Proof.
  apply event_loop_ind; [reflexivity|]. intros id c evs a acts o a' ar outs Hp IH.
  rewrite adds_app, ups_app, peers_app.
  unfold process_event in Hp. destruct c, (next_admit a); injection Hp as <- <- <-; cbn;
    rewrite ?N.eqb_refl, IH; reflexivity.
Qed.

Lemma event_loop_length : forall evs a acts outs, event_loop evs a = (acts, outs) -> length outs = length evs.
Proof. apply event_loop_ind; [reflexivity|]. intros. cbn. congruence. Qed.

Fixpoint answers (n : nat) (a : list bool) : list bool :=
  match n with O => [] | S n' => fst (next_admit a) :: answers n' (snd (next_admit a)) end.

Lemma event_loop_admission : forall evs a acts outs, event_loop evs a = (acts, outs) ->
  map snd (adds_of acts) = answers (length (adds_of acts)) a.
Proof.
  apply event_loop_ind; [reflexivity|]. intros id c evs a acts o a' ar outs Hp IH.
  rewrite adds_app. unfold process_event in Hp. destruct c; try (injection Hp as <- _ <-; exact IH).
  (* EvMine: the one class that asks the collector *)
  destruct (next_admit a) as [b a1] eqn:Hn. injection Hp as <- _ <-. cbn. rewrite Hn, IH. reflexivity.
Qed.

Definition refused_ok (e : endpoint) (o : obs) : Prop :=
  effects o = [] /\ ob_hdr_calls o = 1%N /\ ob_docs o = (if is_v1 e then [DErr] else []).

(* [replay]: every event was handed to the right component exactly once, in order *)
Definition processed_ok (e : endpoint) (evs : list (N * evclass)) (o : obs) : Prop :=
  exists outs, replay evs (ob_adds o) (ob_up o) (ob_peer o) = Some outs /\
               length outs = length evs /\
               (ob_hdr_calls o <= 1)%N /\
               ob_docs o = match e with EpBatch => [DList (map std_status outs)] | _ => [] end.

Definition obs_ok (e : endpoint) (evs : list (N * evclass)) (o : obs) : Prop :=
  if is_error e (ob_status o) then refused_ok e o else processed_ok e evs o.

Lemma obs_ok_error e evs o : obs_ok e evs o -> is_error e (ob_status o) = true -> refused_ok e o.
Proof. unfold obs_ok. intros H E. rewrite E in H. exact H. Qed.

Lemma obs_ok_success e evs o : obs_ok e evs o -> is_error e (ob_status o) = false -> processed_ok e evs o.
Proof. unfold obs_ok. intros H E. rewrite E in H. exact H. Qed.

Lemma refused_v1 e evs c : is_v1 e = true -> is_err_code c = true -> obs_ok e evs (observe (report c)).
Proof.
  intros V Hc. unfold obs_ok, refused_ok, is_err_code in *. rewrite V. destruct e; try discriminate V; cbn; rewrite Hc; auto.
Qed.

Lemma refused_hdr e evs c : is_v1 e = false -> is_error e c = true -> obs_ok e evs (observe [AHdr c]).
Proof. intros V Hc. unfold obs_ok, refused_ok. rewrite V. cbn. rewrite Hc. auto. Qed.

Definition answer (e : endpoint) (outs : list outcome) : list action :=
  match e with
  | EpEvent => []
  | EpBatch => [ADoc (DList (map std_status outs))]
  | _ => [AHdr (if is_grpc e then 0 else 200)%N]
  end.

Lemma answered_ok e evs a acts outs :
  event_loop evs a = (acts, outs) -> obs_ok e evs (observe (acts ++ answer e outs)).
Proof.
  intros Hl. unfold obs_ok. rewrite (observe_quiet_app _ _ (event_loop_quiet _ _ _ _ Hl)).
  cbn [ob_status ob_hdr_calls ob_docs ob_adds ob_up ob_peer].
  replace (is_error e (ob_status (observe (answer e outs)))) with false by (destruct e; reflexivity).
  exists outs. split; [|split; [exact (event_loop_length _ _ _ _ Hl)|]].
  - rewrite <- (event_loop_replay _ _ _ _ Hl). destruct e; cbn; rewrite !app_nil_r; reflexivity.
  - destruct e; cbn; (split; [lia|reflexivity]).
Qed.

Lemma process_event_refused id c a acts a' :
  process_event id c a = (acts, ORefused, a') -> acts = [AAdd id false].
Proof.
  unfold process_event. destruct c, (next_admit a) as [[] ?]; intros [= <- _]; reflexivity.
Qed.

(* processEvent as the event handler calls it: a full queue is the one outcome it reports as an error *)
Lemma single_event_ok id c a errc : is_err_code errc = true ->
  obs_ok EpEvent [(id, c)]
    (observe (let '(acts, o, _) := process_event id c a in
              acts ++ match o with ORefused => report errc | _ => [] end)).
Proof.
  intros Hc. destruct (process_event id c a) as [[acts o] a'] eqn:Hp.
  assert (Hl : event_loop [(id, c)] a = (acts, [o])) by (cbn; rewrite Hp, app_nil_r; reflexivity).
  destruct o; try exact (answered_ok EpEvent _ _ _ _ Hl).
  apply process_event_refused in Hp as ->. unfold obs_ok, refused_ok, is_err_code in *. cbn. rewrite Hc. auto.
Qed.

(* processOTLPRequest and what its caller makes of the result, when a failed environment lookup is propagated *)
Lemma otlp_process_ok e r errc : is_v1 e = false -> is_error e errc = true ->
  obs_ok e (r_events r)
    (observe (let '(acts, failed) := otlp_process true r in
              acts ++ [AHdr (if failed then errc else if is_grpc e then 0 else 200)%N])).
Proof.
  intros V He. unfold otlp_process. destruct (env_fails r).
  - now apply refused_hdr.
  - destruct (event_loop (r_events r) (r_admit r)) as [acts outs] eqn:Hl.
    pose proof (answered_ok e _ _ _ _ Hl) as H. destruct e; try discriminate; exact H.
Qed.

(* a handler is a cascade of guards, each of which refuses the request, in front of the processing *)
Lemma guard_ok e evs (b : bool) refusal rest :
  obs_ok e evs (observe refusal) -> obs_ok e evs (observe rest) ->
  obs_ok e evs (observe (if b then refusal else rest)).
Proof. destruct b; trivial. Qed.

Theorem handle_obs_ok p r :
  params_ok p = true -> ext_ok (r_ext r) = true -> obs_ok (r_ep r) (req_events r) (observe (handle p r)).
Proof.
  (* split into their conjuncts, [params_ok p] and [ext_ok x] close the side conditions below by [assumption] *)
  unfold params_ok, ext_ok. intros Hp Hx.
  repeat (apply andb_prop in Hp as [Hp ?]). repeat (apply andb_prop in Hx as [Hx ?]).
  unfold handle, req_events. destruct (r_ep r).
  - unfold with_auth, h_event. repeat apply guard_ok; [now apply refused_v1..|].
    destruct (first_event r) as [id c].
    destruct c; [now apply refused_v1 | ..]; now apply single_event_ok.
  - unfold with_auth, h_batch.
    assert (snd (p_b_ds p) = true) as -> by assumption. assert (snd (p_b_env p) = true) as -> by assumption.
    rewrite !app_nil_r. repeat apply guard_ok; [now apply refused_v1..|].
    destruct (event_loop (r_events r) (r_admit r)) as [acts outs] eqn:Hl.
    replace (map (item_status p) outs) with (map std_status outs); [exact (answered_ok EpBatch _ _ _ _ Hl)|].
    apply map_ext. intros o. symmetry. destruct o; apply N.eqb_eq; assumption.
  - unfold h_otlp_trace_http. assert (p_env_msgp p = true) as -> by assumption.
    repeat apply guard_ok; [now apply refused_hdr..|now apply otlp_process_ok].
  - unfold h_otlp_logs_http. assert (p_env_map p = true) as -> by assumption.
    repeat apply guard_ok; [now apply refused_hdr..|now apply otlp_process_ok].
  - unfold h_otlp_grpc. assert (p_env_msgp p = true) as -> by assumption.
    repeat apply guard_ok; [now apply refused_hdr..|now apply otlp_process_ok].
  - unfold h_otlp_grpc. assert (p_env_map p = true) as -> by assumption.
    repeat apply guard_ok; [now apply refused_hdr..|now apply otlp_process_ok].
Qed.

Theorem error_status_no_effects p r :
  params_ok p = true -> ext_ok (r_ext r) = true ->
  let o := observe (handle p r) in
  is_error (r_ep r) (ob_status o) = true -> effects o = [].
Proof.
  intros Hp Hx o He. exact (proj1 (obs_ok_error _ _ _ (handle_obs_ok p r Hp Hx) He)).
Qed.

Theorem success_all_processed p r :
  params_ok p = true -> ext_ok (r_ext r) = true ->
  let o := observe (handle p r) in
  is_error (r_ep r) (ob_status o) = false ->
  exists outs, replay (req_events r) (ob_adds o) (ob_up o) (ob_peer o) = Some outs /\
               length outs = length (req_events r).
Proof.
  intros Hp Hx o He. destruct (obs_ok_success _ _ _ (handle_obs_ok p r Hp Hx) He) as (outs & H1 & H2 & _). eauto.
Qed.

Theorem batch_item_statuses p r :
  params_ok p = true -> ext_ok (r_ext r) = true -> r_ep r = EpBatch ->
  let o := observe (handle p r) in
  is_error EpBatch (ob_status o) = false ->
  exists outs, replay (r_events r) (ob_adds o) (ob_up o) (ob_peer o) = Some outs /\
               length outs = length (r_events r) /\
               ob_docs o = [DList (map std_status outs)].
Proof.
  intros Hp Hx E o He. pose proof (handle_obs_ok p r Hp Hx) as H. unfold req_events in H. rewrite E in H.
  destruct (obs_ok_success _ _ _ H He) as (outs & H1 & H2 & _ & H4). eauto.
Qed.

Theorem exactly_one_status p r :
  params_ok p = true -> ext_ok (r_ext r) = true ->
  let o := observe (handle p r) in
  (ob_hdr_calls o <= 1)%N /\ (length (ob_docs o) <= 1)%nat /\
  (is_v1 (r_ep r) = true -> is_error (r_ep r) (ob_status o) = true -> ob_docs o = [DErr] /\ ob_hdr_calls o = 1%N).
Proof.
  intros Hp Hx o. pose proof (handle_obs_ok p r Hp Hx : obs_ok _ _ o) as H.
  destruct (is_error (r_ep r) (ob_status o)) eqn:He.
  - destruct (obs_ok_error _ _ _ H He) as (_ & -> & ->). split; [lia|].
    split; [destruct (is_v1 (r_ep r)); cbn; lia|]. intros -> _. auto.
  - destruct (obs_ok_success _ _ _ H He) as (outs & _ & _ & H3 & ->). split; [exact H3|].
    split; [destruct (r_ep r); cbn; lia | discriminate].
Qed.

Lemma obs_ok_check r o : obs_ok (r_ep r) (req_events r) o -> check_obs r o = [].
Proof.
  intros H. unfold check_obs. destruct (is_error (r_ep r) (ob_status o)) eqn:He.
  - destruct (obs_ok_error _ _ _ H He) as (-> & -> & ->). cbn. destruct (is_v1 (r_ep r)); reflexivity.
  - destruct (obs_ok_success _ _ _ H He) as (outs & -> & _ & H3 & ->). apply N.leb_le in H3. rewrite H3. cbn.
    destruct (r_ep r); try reflexivity.
    rewrite (list_eqb_refl doc_eqb doc_eqb_refl). reflexivity.
Qed.

Theorem monitor_accepts_model p r :
  params_ok p = true -> ext_ok (r_ext r) = true -> check_obs r (observe (handle p r)) = [].
Proof. intros Hp Hx. apply obs_ok_check, handle_obs_ok; assumption. Qed.

(* evaluated on Gen/GenC23.v: stops compiling when a status code or a "report, then return" flag extracted
   from the source no longer meets [params_ok] *)
Lemma gen_params_ok : params_ok gen_params = true.
Proof. vm_compute. reflexivity. Qed.

Definition tree_obs (r : request) : obs := observe (handle gen_params r).

Definition ext_std : ext := {| x_ctype := 415; x_parse := 400; x_grpc_unauth := 16; x_grpc_internal := 13 |}%N.
Definition no_faults : faults :=
  {| f_auth := false; f_body := false; f_dataset := false; f_env := false; f_parse := false; f_ctype := false |}.
Definition env_fault : faults :=
  {| f_auth := false; f_body := false; f_dataset := false; f_env := true; f_parse := false; f_ctype := false |}.
Definition witness_batch : request :=
  {| r_ep := EpBatch; r_direct := false; r_legacy := false; r_f := env_fault;
     r_events := [(1%N, EvMine); (2%N, EvPeer); (3%N, EvNonTrace)]; r_admit := []; r_ext := ext_std |}.
Definition witness_otlp : request :=
  {| r_ep := EpOtlpTraceHttp; r_direct := false; r_legacy := false; r_f := env_fault;
     r_events := [(1%N, EvMine)]; r_admit := []; r_ext := ext_std |}.

(* With [pinned_params] the batch handler goes on after reporting a failed environment lookup, and the OTLP
   handler answers success although the failed lookup kept the span from being processed. *)
Lemma pinned_batch_refuted :
  let o := observe (handle pinned_params witness_batch) in
  is_error EpBatch (ob_status o) = true /\ effects o = [1; 3; 2]%N /\ length (ob_docs o) = 2%nat.
Proof. vm_compute. repeat split; reflexivity. Qed.

Lemma pinned_otlp_refuted :
  let o := observe (handle pinned_params witness_otlp) in
  is_error EpOtlpTraceHttp (ob_status o) = false /\
  replay (r_events witness_otlp) (ob_adds o) (ob_up o) (ob_peer o) = None /\ effects o = [].
Proof. vm_compute. repeat split; reflexivity. Qed.
