(* C12: the creation log is a one-to-one map from (generation, key) to instance ids; a worker keeps
   its cached sampler until its own reload signal; within a generation all workers get the same
   instances.  C13: goalThroughputConfigs records the UseClusterSize definitions, and every
   updatePeerCounts rescales the instances of exactly those; the [peers_current_*] theorems say when the
   recorded peer count is the current one. *)
From Refinery Require Import Lib.Base Lib.Strs_samp Model.Registry.

Lemma rkey_eqb_spec a b : reflect (a = b) (rkey_eqb a b).
Proof.
  apply iff_reflect. unfold rkey_eqb. destruct a as [s1 p1 t1 q1 f1], b as [s2 p2 t2 q2 f2].
  cbn [k_scope k_prefix k_type k_params k_fields].
  rewrite !andb_true_iff, str_eqb_eq, N.eqb_eq, (list_eqb_eq _ Z.eqb_eq), (list_eqb_eq _ str_eqb_eq).
  split.
  - intros [= -> -> -> -> ->]. destruct s2; auto.
  - intros [[[[Hs ->] ->] ->] ->]. destruct s1, s2; try discriminate; reflexivity.
Qed.

Lemma rkey_eqb_refl a : rkey_eqb a a = true.
Proof. destruct (rkey_eqb_spec a a); congruence. Qed.

Lemma kfind_kremove {V} k k' (m : list (rkey * V)) :
  kfind k (kremove k' m) = if rkey_eqb k k' then None else kfind k m.
Proof.
  induction m as [|[k2 v] r IH]; cbn [kremove kfind]; [destruct (rkey_eqb k k'); reflexivity|].
  destruct (rkey_eqb_spec k' k2) as [<-|Hne]; cbn [kfind]; rewrite IH.
  - destruct (rkey_eqb k k'); reflexivity.
  - destruct (rkey_eqb_spec k k2) as [->|]; [|reflexivity].
    destruct (rkey_eqb_spec k2 k'); congruence.
Qed.

Lemma kfind_kremove_eq {V} k (m : list (rkey * V)) : kfind k (kremove k m) = None.
Proof. rewrite kfind_kremove, rkey_eqb_refl. reflexivity. Qed.

Lemma kfind_kset {V} k k' (v : V) m :
  kfind k (kset k' v m) = if rkey_eqb k k' then Some v else kfind k m.
Proof. unfold kset. cbn [kfind]. rewrite kfind_kremove. destruct (rkey_eqb k k'); reflexivity. Qed.

(* the step that recovers the name from an equation between [key_of]s (C12_same_key_iff_identical) *)
Lemma go_prefix_inj sc n1 n2 : go_prefix sc n1 = go_prefix sc n2 -> n1 = n2.
Proof.
  destruct sc; cbn [go_prefix]; [auto|].
  intros H. apply app_inv_head in H. apply app_inv_tail in H. exact H.
Qed.

Definition rid (k : rkey) (reg : list (rkey * inst)) : option N := option_map i_id (kfind k reg).

Lemma rid_cons k' k i reg :
  rid k' ((k, i) :: reg) = if rkey_eqb k' k then Some (i_id i) else rid k' reg.
Proof. unfold rid. cbn [kfind]. destruct (rkey_eqb k' k); reflexivity. Qed.

Lemma regoal_keeps goals p e :
  fst (regoal goals p e) = fst e /\ i_id (snd (regoal goals p e)) = i_id (snd e).
Proof.
  destruct e as [k i]. unfold regoal.
  destruct (is_throughput (k_type k)); [destruct (kfind k goals)|]; split; reflexivity.
Qed.

Lemma kfind_regoal goals p k reg :
  kfind k (map (regoal goals p) reg) =
  option_map (fun i => snd (regoal goals p (k, i))) (kfind k reg).
Proof.
  induction reg as [|[k' i] r IH]; [reflexivity|]. cbn [map].
  rewrite (surjective_pairing (regoal goals p (k', i))), (proj1 (regoal_keeps goals p (k', i))).
  cbn [kfind fst]. destruct (rkey_eqb_spec k k') as [->|_]; [reflexivity|exact IH].
Qed.

Lemma rid_update s k : rid k (f_reg (update_peer_counts s)) = rid k (f_reg s).
Proof.
  unfold rid, update_peer_counts. cbn [f_reg]. rewrite kfind_regoal.
  destruct (kfind k (f_reg s)) as [i|]; [|reflexivity]. cbn [option_map].
  rewrite (proj2 (regoal_keeps _ _ _)). reflexivity.
Qed.

Lemma create_spec s sc name d :
  let k := key_of sc name d in
  let s' := fst (create s sc name d) in
  let id := snd (create s sc name d) in
  f_gen s' = f_gen s /\
  (forall k', rid k' (f_reg s') = if rkey_eqb k' k then Some id else rid k' (f_reg s)) /\
  match rid k (f_reg s) with
  | Some i => id = i /\ f_next s' = f_next s
  | None => id = f_next s /\ f_next s' = N.succ (f_next s)
  end.
Proof.
  intros k s' id. subst s' id. unfold create. fold k. unfold rid at 3.
  destruct (kfind k (f_reg s)) as [i|] eqn:F; cbn [option_map fst snd];
    (split; [reflexivity|]); (split; [|split; reflexivity]); intros k'; rewrite rid_update; cbn [f_reg].
  - destruct (rkey_eqb_spec k' k) as [->|_]; [|reflexivity]. unfold rid. rewrite F. reflexivity.
  - apply rid_cons.
Qed.

(* an entry of the creation log [flog] *)
Definition e_gen (e : N * rkey * N) : N := fst (fst e).
Definition e_key (e : N * rkey * N) : rkey := snd (fst e).
Definition e_id (e : N * rkey * N) : N := snd e.

(* The registry is the current generation's part of the log, and ids are handed out in increasing
   order; so a creation that finds its key repeats a logged entry, and one that does not differs
   from every logged entry in its id and in its generation or key. *)
Record logged (log : list (N * rkey * N)) (s : fstate) : Prop := {
  log_bound : forall e, In e log -> (e_gen e <= f_gen s)%N /\ (e_id e < f_next s)%N;
  log_reg : forall k id, rid k (f_reg s) = Some id <-> In (f_gen s, k, id) log;
  log_inj : forall e1 e2, In e1 log -> In e2 log ->
            (e_id e1 = e_id e2 <-> e_gen e1 = e_gen e2 /\ e_key e1 = e_key e2)
}.

Lemma logged_init : logged [] finit.
Proof.
  constructor; [intros e []| |intros e1 e2 []]. intros k id. split; [discriminate|intros []].
Qed.

Lemma logged_same_ids log s s' :
  logged log s -> f_next s' = f_next s -> f_gen s' = f_gen s ->
  (forall k, rid k (f_reg s') = rid k (f_reg s)) -> logged log s'.
Proof.
  intros [B R L] Hn Hg Hr. constructor; [rewrite Hn, Hg; exact B| |exact L].
  intros k id. rewrite Hr, Hg. apply R.
Qed.

Lemma logged_repeat log s e : logged log s -> In e log -> logged (log ++ [e]) s.
Proof.
  intros [B R L] He.
  assert (forall e', In e' (log ++ [e]) <-> In e' log) as Hin.
  { intros e'. rewrite in_app_iff. cbn [In]. intuition congruence. }
  constructor.
  - intros e'. rewrite Hin. apply B.
  - intros k id. rewrite Hin. apply R.
  - intros e1 e2. rewrite !Hin. apply L.
Qed.

Lemma logged_create log s sc name d :
  logged log s ->
  logged (log ++ [(f_gen s, key_of sc name d, snd (create s sc name d))]) (fst (create s sc name d)).
Proof.
  intros HL. generalize (create_spec s sc name d). cbv zeta.
  generalize (key_of sc name d) (fst (create s sc name d)) (snd (create s sc name d)).
  intros k s' id [Hg [Hr H]].
  destruct (rid k (f_reg s)) as [i|] eqn:Rk; destruct H as [-> Hn].
  - eapply logged_same_ids; [|exact Hn|exact Hg|].
    + apply logged_repeat; [exact HL|]. apply (log_reg _ _ HL). exact Rk.
    + intros k'. rewrite Hr. destruct (rkey_eqb_spec k' k) as [->|_]; congruence.
  - destruct HL as [B R L].
    (* a logged entry has neither the id nor the generation and key of the new one *)
    assert (forall e, In e log -> (e_id e = f_next s <-> e_gen e = f_gen s /\ e_key e = k)) as Hnew.
    { intros [[g k'] i] He. cbn. split.
      - intros ->. specialize (B _ He). cbn in B. lia.
      - intros [-> ->]. apply R in He. congruence. }
    constructor.
    + intros e He. rewrite Hn, Hg. apply in_app_or in He. destruct He as [He|[<-|[]]].
      * specialize (B e He). lia.
      * cbn. lia.
    + intros k' id'. rewrite Hr, Hg, in_app_iff, <- R. cbn [In].
      destruct (rkey_eqb_spec k' k) as [->|Hne].
      * rewrite Rk. split; [intros [= <-]; auto|intros [[=]|[[= <-]|[]]]; reflexivity].
      * split; [auto|intros [H|[[=]|[]]]; [exact H|congruence]].
    + intros e1 e2 H1 H2. apply in_app_or in H1, H2.
      destruct H1 as [H1|[<-|[]]], H2 as [H2|[<-|[]]].
      * apply L; assumption.
      * exact (Hnew e1 H1).
      * (* the same with every equation turned round *)
        destruct (Hnew e2 H2) as [A A'].
        split; [intros E; destruct (A (eq_sym E)); auto|intros [E1 E2]; symmetry; apply A'; auto].
      * tauto.
Qed.

Lemma logged_clear log s : logged log s -> logged log (clear s).
Proof.
  intros [B R L]. constructor; cbn [clear f_next f_gen f_reg]; [| |exact L].
  - intros e He. specialize (B e He). lia.
  - intros k id. split; [discriminate|]. intros He. apply B in He. cbn in He. lia.
Qed.

Lemma logged_peers log s src fire : logged log s -> logged log (fst (fstep s (FPeers src fire))).
Proof.
  intros HL. eapply logged_same_ids; [exact HL|destruct fire; reflexivity..|].
  intros k. destruct fire; cbn [fstep fst]; [rewrite rid_update|]; reflexivity.
Qed.

Lemma logged_run ops : forall log s, logged log s -> logged (log ++ flog s ops) (frun s ops).
Proof.
  induction ops as [|o r IH]; intros log s HL; cbn [flog frun]; [rewrite app_nil_r; exact HL|].
  destruct o as [sc name d| |src fire|sc name d src]; cbn [fstep].
  - apply (logged_create _ _ sc name d), IH in HL. rewrite <- app_assoc in HL.
    destruct (create s sc name d). exact HL.
  - apply IH, logged_clear, HL.
  - apply IH, logged_peers, HL.
  - apply (logged_create _ _ sc name d), (logged_peers _ _ src true), IH in HL.
    rewrite <- app_assoc in HL.
    destruct (create s sc name d). exact HL.
Qed.

(* Every history of creations, clears and membership changes: two creations returned the same
   instance exactly when they happened in the same generation with the same key. *)
Theorem shared_iff_same_key ops e1 e2 :
  In e1 (flog finit ops) -> In e2 (flog finit ops) ->
  (e_id e1 = e_id e2 <-> e_gen e1 = e_gen e2 /\ e_key e1 = e_key e2).
Proof.
  apply (log_inj _ _ (logged_run ops [] finit logged_init)).
Qed.

Fixpoint wstate_after (s : wstate) (ops : list wop) : wstate :=
  match ops with [] => s | o :: r => wstate_after (fst (wstep s o)) r end.

Definition no_worker_reload (w : N) (ops : list wop) : Prop :=
  forall o, In o ops -> o <> WWorkerReload w.

Lemma wget_hit s w name ids :
  cfind w name (w_cache s) = Some ids -> wstep s (WGet w name) = (s, ids).
Proof. intros H. cbn [wstep]. rewrite H. reflexivity. Qed.

Lemma wget_miss s w name :
  cfind w name (w_cache s) = None ->
  let r := get_sampler (w_f s) (w_cfg s) name in
  wstep s (WGet w name) =
  ({| w_f := fst r; w_cfg := w_cfg s; w_cache := ((w, name), snd r) :: w_cache s |}, snd r).
Proof. intros H. cbn [wstep]. rewrite H. destruct (get_sampler _ _ _). reflexivity. Qed.

Lemma cfind_filter w w' name m :
  cfind w name (filter (fun e => negb (N.eqb (fst (fst e)) w')) m) =
  if N.eqb w w' then None else cfind w name m.
Proof.
  induction m as [|[[w2 n2] v] r IH]; cbn [filter fst cfind]; [destruct (N.eqb w w'); reflexivity|].
  destruct (N.eqb_spec w2 w') as [->|Hne]; cbn [negb cfind]; rewrite IH.
  - destruct (N.eqb w w'); reflexivity.
  - destruct (N.eqb_spec w w') as [->|_]; [|reflexivity].
    destruct (N.eqb_spec w' w2); [congruence|reflexivity].
Qed.

Lemma wstep_cache_stable s o w name ids :
  cfind w name (w_cache s) = Some ids -> o <> WWorkerReload w ->
  cfind w name (w_cache (fst (wstep s o))) = Some ids.
Proof.
  intros H Hn. destruct o as [w' name'|c|w'].
  - destruct (cfind w' name' (w_cache s)) as [ids'|] eqn:C.
    + rewrite (wget_hit _ _ _ _ C). exact H.
    + rewrite (wget_miss _ _ _ C). cbn [fst w_cache cfind].
      destruct (N.eqb_spec w w') as [->|_]; [|exact H].
      destruct (str_eqb_spec name name'); [congruence|exact H].
  - exact H.
  - cbn [wstep fst w_cache]. rewrite cfind_filter. destruct (N.eqb_spec w w'); congruence.
Qed.

(* a worker keeps deciding with the sampler it cached until it handles its own reload signal,
   whatever the factory and the other workers do meanwhile *)
Theorem worker_cache_stable ops : forall s w name ids,
  cfind w name (w_cache s) = Some ids -> no_worker_reload w ops ->
  cfind w name (w_cache (wstate_after s ops)) = Some ids.
Proof.
  induction ops as [|o r IH]; intros s w name ids H Hn; [exact H|].
  cbn [wstate_after]. apply IH.
  - apply wstep_cache_stable; [exact H|]. apply Hn. left. reflexivity.
  - intros o' Ho'. apply Hn. right. exact Ho'.
Qed.

(* holds from one creation to the next, as long as the registry is not cleared *)
Definition reg_incl (s s' : fstate) : Prop :=
  forall k id, rid k (f_reg s) = Some id -> rid k (f_reg s') = Some id.

Lemma reg_incl_refl s : reg_incl s s.
Proof. intros k id H. exact H. Qed.

Lemma reg_incl_trans a b c : reg_incl a b -> reg_incl b c -> reg_incl a c.
Proof. intros H1 H2 k id H. apply H2, H1, H. Qed.

Lemma create_returns_rid s sc name d :
  rid (key_of sc name d) (f_reg (fst (create s sc name d))) = Some (snd (create s sc name d)).
Proof.
  destruct (create_spec s sc name d) as [_ [-> _]]. rewrite rkey_eqb_refl. reflexivity.
Qed.

Lemma create_existing s sc name d id :
  rid (key_of sc name d) (f_reg s) = Some id -> snd (create s sc name d) = id.
Proof.
  intros R. destruct (create_spec s sc name d) as [_ [_ Hs]]. rewrite R in Hs. apply Hs.
Qed.

Lemma create_incl s sc name d : reg_incl s (fst (create s sc name d)).
Proof.
  intros k id H. destruct (create_spec s sc name d) as [_ [-> _]].
  destruct (rkey_eqb_spec k (key_of sc name d)) as [->|_]; [|exact H].
  rewrite (create_existing _ _ _ _ _ H). reflexivity.
Qed.

Lemma create_again s sc name d :
  rid (key_of sc name d) (f_reg s) = Some (snd (create s sc name d)) ->
  True.
Proof. trivial. Qed.

Lemma create_stable s s2 sc name d :
  reg_incl (fst (create s sc name d)) s2 -> snd (create s2 sc name d) = snd (create s sc name d).
Proof. intros He. apply create_existing, He, create_returns_rid. Qed.

Lemma create_down_cons s name d r :
  let c := create s Down name d in
  let cr := create_down (fst c) name r in
  create_down s name (Some d :: r) = (fst cr, Some (snd c) :: snd cr).
Proof.
  cbn [create_down]. destruct (create s Down name d) as [s1 i]. cbn [fst].
  destruct (create_down s1 name r). reflexivity.
Qed.

Lemma create_down_skip s name r :
  create_down s name (None :: r) = (fst (create_down s name r), None :: snd (create_down s name r)).
Proof. cbn [create_down]. destruct (create_down s name r). reflexivity. Qed.

Lemma create_down_incl name ds : forall s, reg_incl s (fst (create_down s name ds)).
Proof.
  induction ds as [|[d|] r IH]; intros s.
  - apply reg_incl_refl.
  - rewrite create_down_cons. eapply reg_incl_trans; [apply create_incl|apply IH].
  - rewrite create_down_skip. apply IH.
Qed.

Lemma create_down_stable name ds : forall s s2,
  reg_incl (fst (create_down s name ds)) s2 -> snd (create_down s2 name ds) = snd (create_down s name ds).
Proof.
  induction ds as [|[d|] r IH]; intros s s2; [reflexivity| |].
  - rewrite !create_down_cons. cbn [fst snd]. intros He. f_equal.
    + f_equal. apply create_stable. eapply reg_incl_trans; [apply create_down_incl|exact He].
    + apply IH. eapply reg_incl_trans; [exact He|apply create_incl].
  - rewrite !create_down_skip. cbn [fst snd]. intros He. f_equal. apply IH, He.
Qed.

Lemma get_sampler_incl s c name : reg_incl s (fst (get_sampler s c name)).
Proof.
  unfold get_sampler. destruct (elookup c name) as [|d|ds]; [apply reg_incl_refl| |apply create_down_incl].
  pose proof (create_incl s Top name d) as H. destruct (create s Top name d). exact H.
Qed.

Lemma get_sampler_stable s c name s2 :
  reg_incl (fst (get_sampler s c name)) s2 ->
  snd (get_sampler s2 c name) = snd (get_sampler s c name).
Proof.
  unfold get_sampler. destruct (elookup c name) as [|d|ds]; [reflexivity| |apply create_down_stable].
  pose proof (create_stable s s2 Top name d) as H.
  destruct (create s Top name d), (create s2 Top name d). cbn [fst snd] in *.
  intros He. rewrite (H He). reflexivity.
Qed.

(* no configuration reload, hence no ClearDynsamplers *)
Definition no_reload (ops : list wop) : Prop := forall o, In o ops -> forall c, o <> WReload c.

Lemma wstep_incl s o :
  (forall c, o <> WReload c) ->
  reg_incl (w_f s) (w_f (fst (wstep s o))) /\ w_cfg (fst (wstep s o)) = w_cfg s.
Proof.
  intros Hn. destruct o as [w name|c|w]; [|congruence|split; [apply reg_incl_refl|reflexivity]].
  destruct (cfind w name (w_cache s)) as [ids|] eqn:C.
  - rewrite (wget_hit _ _ _ _ C). split; [apply reg_incl_refl|reflexivity].
  - rewrite (wget_miss _ _ _ C). split; [apply get_sampler_incl|reflexivity].
Qed.

Lemma wrun_incl ops : forall s,
  no_reload ops -> reg_incl (w_f s) (w_f (wstate_after s ops)) /\ w_cfg (wstate_after s ops) = w_cfg s.
Proof.
  induction ops as [|o r IH]; intros s Hn; [split; [apply reg_incl_refl|reflexivity]|].
  cbn [wstate_after].
  destruct (wstep_incl s o (Hn o (or_introl eq_refl))) as [He Hc].
  destruct (IH (fst (wstep s o)) (fun o' Ho' => Hn o' (or_intror Ho'))) as [He' Hc'].
  split; [eapply reg_incl_trans; eassumption|congruence].
Qed.

(* Worker-count independence: within one registry generation (no reload in between), a worker
   that has to ask the factory gets exactly the instances the first asker got — whichever worker,
   whatever other lookups and worker reload signals happened meanwhile. *)
Theorem workers_agree s w1 w2 name ops :
  cfind w1 name (w_cache s) = None -> no_reload ops ->
  let s1 := fst (wstep s (WGet w1 name)) in
  let s2 := wstate_after s1 ops in
  cfind w2 name (w_cache s2) = None ->
  snd (wstep s2 (WGet w2 name)) = snd (wstep s (WGet w1 name)).
Proof.
  intros H1 Hn s1 s2 H2. destruct (wrun_incl ops s1 Hn) as [He Hc]. fold s2 in He, Hc.
  rewrite (wget_miss s2 _ _ H2). cbn [snd]. rewrite Hc. clearbody s2. subst s1.
  rewrite (wget_miss s _ _ H1) in *. apply get_sampler_stable, He.
Qed.

Lemma wstate_after_app s a b : wstate_after s (a ++ b) = wstate_after (wstate_after s a) b.
Proof. revert s. induction a as [|o r IH]; intros s; [reflexivity|apply IH]. Qed.

Lemma cfind_after_worker_reload s w name :
  cfind w name (w_cache (fst (wstep s (WWorkerReload w)))) = None.
Proof. cbn [wstep fst w_cache]. rewrite cfind_filter, N.eqb_refl. reflexivity. Qed.

(* After its reload branch a worker misses its cache, so [workers_agree] applies with nothing
   asked of [s0]. *)
Lemma reloaded_workers_agree s0 mid w1 w2 name :
  no_reload mid ->
  let sA := fst (wstep s0 (WWorkerReload w1)) in
  let r1 := wstep sA (WGet w1 name) in
  let sB := fst (wstep (wstate_after (fst r1) mid) (WWorkerReload w2)) in
  snd (wstep sB (WGet w2 name)) = snd r1.
Proof.
  intros Hn sA r1 sB. subst r1 sB.
  pose proof (workers_agree sA w1 w2 name (mid ++ [WWorkerReload w2])) as H.
  cbv zeta in H. rewrite wstate_after_app in H. apply H.
  - apply cfind_after_worker_reload.
  - intros o Ho. apply in_app_or in Ho. destruct Ho as [Ho|[<-|[]]]; [apply Hn, Ho|discriminate].
  - apply cfind_after_worker_reload.
Qed.

(* The history of C12_signal_before_clear_refuted (Props/C12.v), signals before
   ClearDynsamplers: worker 0 runs its reload branch between the two steps, gets the instance of
   the old generation and, having consumed its signal, keeps it, while worker 1 (reload branch
   after the clear) gets a new one.  [dd_params] are the four [param_names 3]. *)
Definition swap_def : ddef := {| dd_type := 3; dd_params := [10; 0; 0; 0]; dd_fields := [u "a"] |}.
Definition swap_cfg : econfig := [(u "prod", EDyn swap_def); (u "__default__", EDet)].
Definition swap_history : list wop :=
  [WGet 0 (u "prod"); WGet 1 (u "prod")] ++
  reload_schedule false swap_cfg [WWorkerReload 0; WGet 0 (u "prod")] [WWorkerReload 1; WGet 1 (u "prod")] ++
  [WGet 0 (u "prod"); WGet 1 (u "prod")].

(* C13.  The UseClusterSize flag and the GoalThroughputPerSec of the definition a key was made
   from (the key holds the whole configuration), and the goal [init_goal] gives a fresh throughput
   instance of it. *)
Definition k_ucs (k : rkey) : bool := use_cluster (k_type k) (k_params k).
Definition k_goal (k : rkey) : Z := goal_cfg (k_type k) (k_params k).
Definition k_init (k : rkey) : Z := let g := k_goal k in if g =? 0 then 100 else g.

(* the bookkeeping: goalThroughputConfigs records exactly the UseClusterSize definitions, with
   their configured goals; the instances of the other throughput definitions keep their initial goal *)
Record recorded (reg : list (rkey * inst)) (goals : list (rkey * Z)) : Prop := {
  rec_goals : forall k c, kfind k goals = Some c -> k_ucs k = true /\ c = k_goal k;
  rec_reg : forall k i, kfind k reg = Some i -> is_throughput (k_type k) = true ->
     if k_ucs k then kfind k goals = Some (k_goal k) else i_goal i = k_init k
}.

(* what updatePeerCounts adds to it *)
Record scaled (s : fstate) : Prop := {
  sc_peers : 1 <= f_peers s;
  sc_recorded : recorded (f_reg s) (f_goals s);
  sc_goal : forall k i, kfind k (f_reg s) = Some i -> is_throughput (k_type k) = true ->
     k_ucs k = true -> i_goal i = node_goal (k_goal k) (f_peers s)
}.

Lemma recorded_nil : recorded [] [].
Proof. constructor; intros; discriminate. Qed.

Lemma recorded_kset reg goals k :
  recorded reg goals -> k_ucs k = true -> recorded reg (kset k (k_goal k) goals).
Proof.
  intros [P1 P2] U. constructor.
  - intros k' c. rewrite kfind_kset.
    destruct (rkey_eqb_spec k' k) as [->|_]; [intros [= <-]; auto|apply P1].
  - intros k' i Hk Ht. specialize (P2 k' i Hk Ht). rewrite kfind_kset.
    destruct (rkey_eqb_spec k' k) as [->|_]; [rewrite U; reflexivity|exact P2].
Qed.

Lemma recorded_cons reg goals k i :
  recorded reg goals ->
  (is_throughput (k_type k) = true ->
   if k_ucs k then kfind k goals = Some (k_goal k) else i_goal i = k_init k) ->
  recorded ((k, i) :: reg) goals.
Proof.
  intros [P1 P2] H. constructor; [exact P1|]. intros k' i'. cbn [kfind].
  destruct (rkey_eqb_spec k' k) as [->|_]; [intros [= <-]; exact H|apply P2].
Qed.

Lemma new_peers_ge s : 1 <= f_peers s -> 1 <= new_peers s.
Proof.
  intros H. unfold new_peers. destruct (f_src s) as [n|]; [|exact H].
  destruct (Z.ltb_spec 0 n); lia.
Qed.

Lemma regoal_goal reg goals p k i :
  recorded reg goals ->
  kfind k (map (regoal goals p) reg) = Some i -> is_throughput (k_type k) = true ->
  exists i0, kfind k reg = Some i0 /\
             i_goal i = if k_ucs k then node_goal (k_goal k) p else i_goal i0.
Proof.
  intros [P1 P2] Hk Ht. rewrite kfind_regoal in Hk.
  destruct (kfind k reg) as [i0|] eqn:F; [|discriminate]. injection Hk as <-.
  exists i0. split; [reflexivity|]. specialize (P2 k i0 F Ht). unfold regoal. rewrite Ht.
  destruct (k_ucs k) eqn:U; [rewrite P2; reflexivity|].
  destruct (kfind k goals) as [c|] eqn:Gk; [|reflexivity].
  destruct (P1 k c Gk). congruence.
Qed.

Lemma scaled_update s :
  1 <= f_peers s -> recorded (f_reg s) (f_goals s) -> scaled (update_peer_counts s).
Proof.
  intros Hp HR. constructor; cbn [update_peer_counts f_peers f_goals f_reg].
  - apply new_peers_ge, Hp.
  - constructor; [apply HR|]. intros k i Hk Ht.
    destruct (regoal_goal _ _ _ _ _ HR Hk Ht) as [i0 [F E]].
    pose proof (rec_reg _ _ HR k i0 F Ht) as P2. destruct (k_ucs k); [exact P2|congruence].
  - intros k i Hk Ht U. destruct (regoal_goal _ _ _ _ _ HR Hk Ht) as [i0 [_ E]].
    rewrite U in E. exact E.
Qed.

Lemma scaled_create s sc name d : scaled s -> scaled (fst (create s sc name d)).
Proof.
  intros [Hp HR _]. unfold create. set (k := key_of sc name d).
  change (use_cluster (dd_type d) (dd_params d)) with (k_ucs k).
  change (goal_cfg (dd_type d) (dd_params d)) with (k_goal k).
  assert (recorded (f_reg s) (if k_ucs k then kset k (k_goal k) (f_goals s) else f_goals s)) as HR'.
  { destruct (k_ucs k) eqn:U; [apply recorded_kset|]; assumption. }
  destruct (kfind k (f_reg s)); cbn [fst]; apply scaled_update; cbn [f_peers f_reg f_goals]; trivial.
  apply recorded_cons; [exact HR'|]. intros Ht. cbn [i_goal]. destruct (k_ucs k).
  - rewrite kfind_kset, rkey_eqb_refl. reflexivity.
  - unfold init_goal. change (dd_type d) with (k_type k). rewrite Ht. reflexivity.
Qed.

Lemma scaled_peers s src fire : scaled s -> scaled (fst (fstep s (FPeers src fire))).
Proof.
  intros HS. destruct fire; [apply scaled_update; apply HS|].
  (* no callback: only [f_src] has changed, which [scaled] does not read *)
  destruct HS. constructor; assumption.
Qed.

Lemma scaled_step s o : scaled s -> scaled (fst (fstep s o)).
Proof.
  intros HS. destruct o as [sc name d| |src fire|sc name d src]; cbn [fstep].
  - apply (scaled_create _ sc name d) in HS. destruct (create s sc name d). exact HS.
  - constructor; [apply HS|apply recorded_nil|discriminate].
  - apply scaled_peers, HS.
  - apply (scaled_create _ sc name d), (scaled_peers _ src true) in HS.
    destruct (create s sc name d). exact HS.
Qed.

Theorem scaled_run ops : forall s, scaled s -> scaled (frun s ops).
Proof.
  induction ops as [|o r IH]; intros s HS; [exact HS|]. cbn [frun]. apply IH, scaled_step, HS.
Qed.

Lemma node_goal_floor c p : 1 <= p -> node_goal c p = Z.max 1 (c / p).
Proof.
  intros Hp. unfold node_goal. destruct (Z_le_gt_dec 0 c) as [Hc|Hc].
  - rewrite Z.quot_div_nonneg by lia. lia.
  - (* a negative goal: both quotients are at most 0, and the maximum with 1 hides which *)
    pose proof (Z.quot_le_mono c 0 p) as Hq. rewrite Z.quot_0_l in Hq by lia.
    pose proof (Z.div_lt_upper_bound c p 0). lia.
Qed.

(* Every history: each live throughput instance created from a UseClusterSize definition has
   goal max(1, floor(configured / peers)); every other throughput instance its initial goal [k_init]. *)
Theorem goals_in_force ops k i :
  let s := frun finit ops in
  kfind k (f_reg s) = Some i -> is_throughput (k_type k) = true ->
  1 <= f_peers s /\
  i_goal i = if k_ucs k then Z.max 1 (k_goal k / f_peers s) else k_init k.
Proof.
  intros s Hk Ht.
  assert (scaled finit) as HS by (constructor; [reflexivity|apply recorded_nil|discriminate]).
  apply (scaled_run ops) in HS. fold s in HS. destruct HS as [Hp [_ P2] Hs].
  split; [exact Hp|]. specialize (P2 k i Hk Ht). specialize (Hs k i Hk Ht).
  destruct (k_ucs k); [|exact P2]. rewrite Hs by reflexivity. apply node_goal_floor, Hp.
Qed.

(* the peer count the factory divides by is the current number of peers as soon as it has looked:
   after a notification, or after any creation, with a successful non-empty peer list *)
Lemma peers_after_update s n : f_src s = Some n -> 0 < n -> f_peers (update_peer_counts s) = n.
Proof.
  intros Hs Hn. cbn [update_peer_counts f_peers]. unfold new_peers. rewrite Hs.
  destruct (Z.ltb_spec 0 n); [reflexivity|lia].
Qed.

Lemma frun_app s a b : frun s (a ++ b) = frun (frun s a) b.
Proof. revert s. induction a as [|o r IH]; intros s; [reflexivity|apply IH]. Qed.

Theorem peers_current_after_notification ops n :
  0 < n -> f_peers (frun finit (ops ++ [FPeers (Some n) true])) = n.
Proof. intros Hn. rewrite frun_app. apply peers_after_update; [reflexivity|exact Hn]. Qed.

(* a membership change delivered while a sampler is being created is not lost: the count is the new one *)
Theorem peers_current_after_racing_creation s sc name d n :
  0 < n -> f_peers (fst (fstep s (FCreateRace sc name d (Some n)))) = n.
Proof.
  intros Hn. cbn [fstep]. destruct (create s sc name d) as [s1 id]. cbn [fst].
  apply peers_after_update; [reflexivity|exact Hn].
Qed.

Theorem peers_current_after_creation s sc name d n :
  f_src s = Some n -> 0 < n -> f_peers (fst (create s sc name d)) = n.
Proof.
  intros Hs Hn. unfold create. destruct (kfind (key_of sc name d) (f_reg s)); cbn [fst];
    apply peers_after_update; try exact Hn; exact Hs.
Qed.

Theorem peers_unchanged_on_failure s :
  (f_src s = None \/ exists n, f_src s = Some n /\ n <= 0) ->
  f_peers (update_peer_counts s) = f_peers s.
Proof.
  intros H. cbn [update_peer_counts f_peers]. unfold new_peers.
  destruct H as [->|[n [-> Hn]]]; [reflexivity|].
  destruct (Z.ltb_spec 0 n); [lia|reflexivity].
Qed.
