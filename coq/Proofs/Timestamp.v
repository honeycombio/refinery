(* Proofs about the timestamp model (C22), part 2: msgpack timestamps and the whole pipeline. *)
From Refinery Require Import Lib.Base Model.Timestamp Proofs.TimestampText.
Local Open Scope Z_scope.

(* [a] lies below bit [n] and the shifted [b] above it: they share no bit, so or, xor and sum agree *)
Lemma lor_shiftl a b n : 0 <= n -> 0 <= a < 2 ^ n -> Z.lor a (Z.shiftl b n) = a + b * 2 ^ n.
Proof.
  intros Hn Ha.
  assert (Hd : Z.land a (Z.shiftl b n) = 0).
  { apply Z.bits_inj'. intros k Hk. rewrite Z.land_spec, Z.bits_0.
    destruct (Z.lt_ge_cases k n).
    - rewrite Z.shiftl_spec_low, andb_false_r by assumption. reflexivity.
    - rewrite <- (Z.mod_small a (2 ^ n)), Z.mod_pow2_bits_high by lia. reflexivity. }
  rewrite <- Z.shiftl_mul_pow2, Z.add_nocarry_lxor, Z.lxor_lor by assumption. reflexivity.
Qed.

Lemma decode_Ts64 v :
  decode_mts (Ts64 v) =
  if 999999999 <? v / 2 ^ 34 then None else Some (v mod 2 ^ 34, v / 2 ^ 34).
Proof.
  cbn [decode_mts]. change (2 ^ 34 - 1) with (Z.ones 34).
  rewrite Z.shiftr_div_pow2, Z.land_ones by lia. reflexivity.
Qed.

Lemma ts32_reads sec :
  0 <= sec < 2 ^ 32 -> decode_mts (Ts32 sec) = Some (sec, 0) /\ mts_wf (Ts32 sec) = true.
Proof. intros H. cbn [decode_mts mts_wf]. split; [reflexivity|lia]. Qed.

Lemma ts64_reads sec ns :
  0 <= sec < 2 ^ 34 -> 0 <= ns < 10 ^ 9 ->
  decode_mts (Ts64 (sec + ns * 2 ^ 34)) = Some (sec, ns) /\ mts_wf (Ts64 (sec + ns * 2 ^ 34)) = true.
Proof.
  intros Hs Hn. rewrite decode_Ts64, Z.div_add, Z_mod_plus_full, Z.div_small, Z.mod_small by lia.
  cbn [mts_wf]. destruct (Z.ltb_spec 999999999 (0 + ns)); [lia|]. split; [reflexivity|lia].
Qed.

(* the uint64 bits of an int64, read back as an int64 *)
Lemma int64_bits sec :
  - 2 ^ 63 <= sec < 2 ^ 63 ->
  0 <= sec mod 2 ^ 64 < 2 ^ 64 /\
  (if sec mod 2 ^ 64 <? 2 ^ 63 then sec mod 2 ^ 64 else sec mod 2 ^ 64 - 2 ^ 64) = sec.
Proof. intros H. destruct (Z.ltb_spec (sec mod 2 ^ 64) (2 ^ 63)); Z.div_mod_to_equations; lia. Qed.

Lemma ts96_reads sec ns :
  - 2 ^ 63 <= sec < 2 ^ 63 -> 0 <= ns < 10 ^ 9 ->
  decode_mts (Ts96 ns (sec mod 2 ^ 64)) = Some (sec, ns) /\ mts_wf (Ts96 ns (sec mod 2 ^ 64)) = true.
Proof.
  intros Hs Hn. unfold decode_mts, mts_wf. destruct (int64_bits sec Hs) as [Hb ->].
  destruct (Z.ltb_spec 999999999 ns); [lia|]. split; [reflexivity|lia].
Qed.

(* AppendTimeExt followed by a standard reader gives the instant back *)
Lemma mts_roundtrip sec ns :
  - 2 ^ 63 <= sec < 2 ^ 63 -> 0 <= ns < 10 ^ 9 ->
  decode_mts (encode_mts (sec, ns)) = Some (sec, ns) /\ mts_wf (encode_mts (sec, ns)) = true.
Proof.
  intros Hs Hn. unfold encode_mts.
  destruct (_ && _) eqn:E32; [|destruct (_ || _) eqn:E96].
  - replace ns with 0 by lia. apply ts32_reads. lia.
  - apply ts96_reads; assumption.
  - rewrite lor_shiftl by lia. apply ts64_reads; lia.
Qed.

(* [client_mts] matches on the binary numeral [fmt], so its last arm is reached along every other
   path through the bits of a positive *)
Lemma client_mts_96 fmt t :
  fmt <> 32%N -> fmt <> 64%N -> client_mts fmt t = Ts96 (snd t) (fst t mod 2 ^ 64).
Proof.
  intros H32 H64. destruct fmt as [|p]; [reflexivity|].
  do 7 (try destruct p as [p|p|]); try reflexivity; congruence.
Qed.

Lemma received_of_event_time i t :
  event_time std_cfg i = Some t -> - 2 ^ 63 <= fst t < 2 ^ 63 -> 0 <= snd t < 10 ^ 9 ->
  received std_cfg i = Some t.
Proof.
  intros He Hs Hn. unfold received, forwarded. rewrite He. destruct t as [sec ns].
  apply (mts_roundtrip sec ns Hs Hn).
Qed.

Lemma received_in_range i t : event_time std_cfg i = Some t -> in_range t -> received std_cfg i = Some t.
Proof.
  intros He [Hs Hn]. unfold range_lo, range_hi in Hs. apply received_of_event_time; [exact He|lia|exact Hn].
Qed.

Lemma in_range_bounds sec nsec : in_range (sec, nsec) -> 0 <= sec < 10 ^ 10 /\ 0 <= nsec < 10 ^ 9.
Proof. unfold in_range, range_lo, range_hi. cbn [fst snd]. lia. Qed.

(* a client request of any of the three kinds (Unix epoch digits, RFC 3339, msgpack timestamp) for an
   instant of the range is forwarded as that instant *)
Theorem received_creq r : creq_ok r -> received std_cfg (creq_input r) = Some (creq_instant r).
Proof.
  intros [Hr Hk]. apply received_in_range; [|exact Hr].
  destruct r as [k [sec nsec]|k off zulu [sec nsec]|fmt [sec nsec]];
    cbn [creq_input creq_instant event_time fst snd] in *;
    destruct (in_range_bounds sec nsec Hr) as [Hs Hn].
  - destruct Hk as [Hk Hp]. rewrite epoch_exact by assumption. reflexivity.
  - destruct Hk as (Hk & Hoff & Hp). rewrite rfc_exact by assumption. reflexivity.
  - destruct Hk as [H32 H64].
    destruct (N.eq_dec fmt 32) as [->|N32]; [|destruct (N.eq_dec fmt 64) as [->|N64]].
    + destruct (H32 eq_refl) as [-> ?]. apply ts32_reads. lia.
    + specialize (H64 eq_refl). apply ts64_reads; lia.
    + rewrite client_mts_96 by assumption. apply ts96_reads; lia.
Qed.

Lemma decode_mts_range x :
  mts_wf x = true ->
  match decode_mts x with
  | Some (sec, ns) => - 2 ^ 63 <= sec < 2 ^ 63 /\ 0 <= ns < 10 ^ 9
  | None => True
  end.
Proof.
  intros Hwf. destruct x as [s|v|n s]; [|rewrite decode_Ts64|]; unfold decode_mts, mts_wf in *.
  - lia.
  - destruct (Z.ltb_spec 999999999 (v / 2 ^ 34)); [exact I|]. Z.div_mod_to_equations. lia.
  - destruct (Z.ltb_spec 999999999 n); [exact I|]. destruct (Z.ltb_spec s (2 ^ 63)); lia.
Qed.

(* every well-formed msgpack timestamp a client can send reaches the API as the instant a standard reader finds
   in it; when its nanoseconds are invalid the request is rejected *)
Theorem received_mts x : mts_wf x = true -> received std_cfg (InMsgp x) = decode_mts x.
Proof.
  intros Hwf. pose proof (decode_mts_range x Hwf) as Hr.
  destruct (decode_mts x) as [[sec ns]|] eqn:Ed.
  - apply received_of_event_time; [exact Ed|apply Hr..].
  - unfold received, forwarded, event_time. rewrite Ed. reflexivity.
Qed.

Theorem batch_pointwise : forall reqs,
  Forall creq_ok reqs ->
  forward_batch std_cfg (map creq_input reqs) = map (fun r => Some (creq_instant r)) reqs.
Proof.
  intros reqs H. unfold forward_batch. rewrite map_map. apply map_ext_in. intros r Hin.
  apply received_creq. rewrite Forall_forall in H. exact (H r Hin).
Qed.
