(* With the re-check under the write lock at most one batch is ever created for a key, it is the stored one,
   and every goroutine appends to it. *)
From Refinery Require Import Lib.Base Model.TransmitCreate.

Lemma cupd_length {A} t (x : A) l : length (cupd t x l) = length l.
Proof. revert t. induction l as [|y r IH]; intros [|t]; cbn; try reflexivity. rewrite IH. reflexivity. Qed.

Lemma nth_cupd_eq {A} t (x d : A) l : (t < length l)%nat -> nth t (cupd t x l) d = x.
Proof. revert t. induction l as [|y r IH]; intros [|t] H; cbn in *; try lia; try reflexivity. apply IH. lia. Qed.

Lemma nth_cupd_neq {A} t t' (x d : A) l : t <> t' -> nth t' (cupd t x l) d = nth t' l d.
Proof.
  revert t t'. induction l as [|y r IH]; intros [|t] [|t'] H; cbn; try reflexivity; try congruence. apply IH. congruence.
Qed.

Lemma Forall_cupd {A} (P : A -> Prop) t x l : Forall P l -> P x -> Forall P (cupd t x l).
Proof. intros H Hx. revert t. induction H; intros [|t]; cbn; constructor; auto. Qed.

Definition cinv (s : cstate) : Prop :=
  match slot s with None => made s = [] | Some b => b = O /\ length (made s) = 1%nat end /\
  Forall (fun p => forall e b, p = CGot e b -> slot s = Some b) (goers s).

Lemma cstep_inv s t : cinv s -> cinv (cstep true s t).
Proof.
  intros [Hm Hg]. unfold cstep. destruct (nth t (goers s) CDone) as [e|e|e b|]; [| | |exact (conj Hm Hg)].
  - (* Start: read-locked lookup *)
    split; [exact Hm|]. apply Forall_cupd; [exact Hg|]. cbn [slot].
    destruct (slot s); [intros e' b' [= _ <-]; reflexivity|discriminate].
  - (* Missed: look again under the write lock, create only if still absent *)
    revert Hm Hg. destruct (slot s) as [b|]; intros Hm Hg.
    + split; [exact Hm|]. apply Forall_cupd; [exact Hg|]. intros e' b' [= _ <-]. reflexivity.
    + split; [cbn; rewrite Hm; split; reflexivity|]. apply Forall_cupd; [|intros e' b' [= _ <-]; reflexivity].
      eapply Forall_impl; [|exact Hg]. intros p Hp e' b' E. discriminate (Hp e' b' E).
  - (* Got: append under the batch mutex *)
    split; cbn [slot made goers]; [|apply Forall_cupd; [exact Hg|discriminate]].
    unfold add_to. destruct (slot s); [rewrite cupd_length; exact Hm|].
    rewrite Hm. destruct b; reflexivity.
Qed.

Lemma crun_inv sched : forall s, cinv s -> cinv (crun true s sched).
Proof. induction sched as [|t r IH]; intros s I; [exact I|]. apply IH, cstep_inv, I. Qed.

Lemma cinit_inv evs : cinv (cinit evs).
Proof. split; [reflexivity|]. apply Forall_map, Forall_forall. discriminate. Qed.

Theorem no_orphan_batch evs sched :
  let s := crun true (cinit evs) sched in
  (length (made s) <= 1)%nat /\ concat (made s) = reachable s.
Proof.
  intros s. destruct (crun_inv sched _ (cinit_inv evs)) as [I _]. fold s in I. unfold reachable.
  destruct (slot s) as [b|]; [|rewrite I; split; [cbn; lia|reflexivity]].
  destruct I as [-> I]. destruct (made s) as [|b0 [|b1 r]]; try discriminate. split; [cbn; lia|apply app_nil_r].
Qed.
