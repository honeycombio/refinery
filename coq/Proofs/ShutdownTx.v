(* C36, transmission part of the shutdown sequence: one round of the retry loop [tries] of
   Model/Transmit.v, through which the batches of Stop's flush are sent like any other batch. *)
From Refinery Require Import Lib.Base Model.Transmit Proofs.Transmit.

(* While attempts remain, a timeout is followed by another attempt, and so is a 429/503 whose
   Retry-After sleep lies in (0, retryLim), after that sleep. *)
Lemma tries_timeout c n rest :
  tries c (S (S n)) (RTimeout :: rest) = let '(a, sls, l) := tries c (S n) rest in (N.succ a, sls, l).
Proof. reflexivity. Qed.

Lemma tries_retryable c n code sl sts rest :
  retryable_status code = true -> 0 < sl < retryLim c ->
  tries c (S (S n)) (RHttp code sl sts :: rest) = let '(a, sls, l) := tries c (S n) rest in (N.succ a, sl :: sls, l).
Proof.
  (* the inner bound is named so that [cbn] unfolds one round of the loop and no more *)
  intros Hr [H0 H1]. remember (S n) as m eqn:Em. cbn [tries tl].
  rewrite Hr, (proj2 (Z.ltb_lt _ _) H0), (proj2 (Z.ltb_lt _ _) H1). subst m.
  destruct (tries c (S n) rest) as [[a sls] l]. reflexivity.
Qed.

Lemma tries_last c rs : exists sls l, tries c 1 rs = (1%N, sls, l).
Proof.
  cbn [tries]. destruct (match rs with x :: _ => x | [] => RNetErr end) as [| |code sl sts]; eauto.
  destruct (retryable_status code && (0 <? sl) && (sl <? retryLim c)); eauto.
Qed.
