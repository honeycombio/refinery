(* C36 (collector part): what holds although Stop never visits the trace buffers, and what deciding
   a whole buffer records and forwards, from which the documented drain meets the property. *)
From Refinery Require Import Lib.Base Model.Collector Model.Shutdown Proofs.CollectorAbs Proofs.CollectorRef Proofs.CollectorTime.

Section ShutdownProofs.
  Variable sampler : N -> list span -> bool.
  Variable dry : bool.
  Notation run := (run sampler dry).
  Notation decide_list := (decide_list sampler dry).

  Lemma run_then_stop_pinned w ops :
    run_then_stop sampler dry stop_pinned w ops = (fst (run w ops), snd (run w ops) ++ [[]]).
  Proof. unfold run_then_stop, stop_pinned. destruct (run w ops) as [w1 es]. reflexivity. Qed.

  Theorem stop_pinned_loses_nothing_if_drained c ops t s :
    w_buf (fst (run (winit c) ops)) = [] ->
    ~ In (OForget t) ops -> accepted_by ops t s ->
    exists k, alookup t (w_dec (fst (run_then_stop sampler dry stop_pinned (winit c) ops))) = Some k /\
              (forwarded (snd (run_then_stop sampler dry stop_pinned (winit c) ops)) t s <-> k || dry = true).
  Proof.
    intros Hempty Hnf Hacc. rewrite run_then_stop_pinned. cbn [fst snd].
    pose proof (worker_no_span_lost sampler dry c ops t s Hnf Hacc) as H.
    destruct (alookup t (w_dec (fst (run (winit c) ops)))) as [k|].
    - exists k. split; [reflexivity|]. destruct H as [_ H]. rewrite <- H.
      unfold forwarded. rewrite concat_app. cbn [concat]. rewrite !app_nil_r. tauto.
    - destruct H as [tr [Hb _]]. rewrite Hempty in Hb. discriminate.
  Qed.

  Lemma decide_list_member l w rf t tr :
    NoDup (map fst l) -> In (t, tr) l ->
    alookup t (w_dec (fst (decide_list w rf l))) = Some (sampler (c_ver (w_cfg w)) (rev (t_spans tr))) /\
    (forall s, In s (sids tr) ->
       (In (t, s, rf tr) (snd (decide_list w rf l)) <-> sampler (c_ver (w_cfg w)) (rev (t_spans tr)) || dry = true)).
  Proof.
    intros Hnd Hin. split.
    - rewrite decide_list_eq. apply (fold_aset_in (fun tr => sampler (c_ver (w_cfg w)) (rev (t_spans tr)))); assumption.
    - intros s Hs. rewrite decide_list_events. split; [|intros Hf; exists tr; auto].
      intros [tr' [Hin' [_ [_ Hf]]]].
      pose proof (In_alookup_NoDup _ _ _ Hnd Hin). pose proof (In_alookup_NoDup _ _ _ Hnd Hin'). congruence.
  Qed.
End ShutdownProofs.
