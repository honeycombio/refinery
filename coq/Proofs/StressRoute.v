(* Proofs about Model/StressRoute.v: the heap machine with a copied probe ([alias = false]) refines the value machine,
   which delivers what the specification lists, each span at most once, in intact upstream requests; with the probe
   aliased to the queued cell a concrete schedule corrupts the upstream batch ([alias_refuted]). *)
From Refinery Require Import Lib.Base Model.StressRoute.
From Coq Require Import Sorting.Permutation.

Lemma partition_perm {A} (f : A -> bool) (l : list A) :
  Permutation l (fst (partition f l) ++ snd (partition f l)).
Proof.
  induction l as [|x r IH]; [apply perm_nil|]. cbn [partition].
  destruct (partition f r) as [a b]. cbn [fst snd] in *.
  destruct (f x); cbn [fst snd app].
  - constructor. exact IH.
  - eapply Permutation_trans; [apply perm_skip; exact IH|]. apply Permutation_middle.
Qed.

Lemma partition_fst_forall {A} (f : A -> bool) (l : list A) : Forall (fun x => f x = true) (fst (partition f l)).
Proof.
  induction l as [|x r IH]; cbn [partition]; [constructor|].
  destruct (partition f r) as [a b]. cbn [fst snd] in *. destruct (f x) eqn:E; cbn [fst]; [constructor; assumption|assumption].
Qed.

Lemma groups_cons {A} fuel k (x : A) r :
  groups (S fuel) ((k, x) :: r) =
  ((k, x) :: fst (partition (fun e => bkey_eqb (fst e) k) r)) :: groups fuel (snd (partition (fun e => bkey_eqb (fst e) k) r)).
Proof. cbn [groups]. destruct (partition _ r). reflexivity. Qed.

Lemma groups_perm {A} : forall fuel (q : list (bkey * A)),
  (length q <= fuel)%nat -> Permutation (concat (groups fuel q)) q.
Proof.
  induction fuel as [|f IH]; intros q Hl.
  - destruct q; [constructor|cbn in Hl; lia].
  - destruct q as [|[k x] r]; [constructor|]. rewrite groups_cons. cbn [concat app]. constructor.
    pose proof (partition_perm (fun e : bkey * A => bkey_eqb (fst e) k) r) as P.
    pose proof (Permutation_length P) as L. rewrite app_length in L. cbn [length] in Hl.
    rewrite IH by lia. symmetry. exact P.
Qed.

Lemma bkey_eqb_eq a b : bkey_eqb a b = true -> a = b.
Proof.
  destruct a as [[h k] d], b as [[h' k'] d']. cbn [bkey_eqb].
  rewrite !andb_true_iff, !N.eqb_eq. intros [[-> ->] ->]. reflexivity.
Qed.

Lemma groups_keyed {A} : forall fuel (q : list (bkey * A)) g,
  In g (groups fuel q) -> exists k, Forall (fun e => fst e = k) g.
Proof.
  induction fuel as [|f IH]; intros q g Hin; [destruct Hin|].
  destruct q as [|[k x] r]; [destruct Hin|]. rewrite groups_cons in Hin.
  destruct Hin as [<-|Hin]; [|eapply IH; exact Hin].
  exists k. constructor; [reflexivity|].
  eapply Forall_impl; [|apply partition_fst_forall]. intros e. apply bkey_eqb_eq.
Qed.

Lemma partition_map {A B} (f : B -> bool) (g : A -> B) (l : list A) :
  partition f (map g l) =
  (map g (fst (partition (fun x => f (g x)) l)), map g (snd (partition (fun x => f (g x)) l))).
Proof.
  induction l as [|x r IH]; cbn [map partition fst snd]; [reflexivity|].
  rewrite IH. destruct (partition (fun x => f (g x)) r) as [a b]. cbn [fst snd].
  destruct (f (g x)); reflexivity.
Qed.

Lemma groups_map_snd {A B} (g : A -> B) : forall fuel (q : list (bkey * A)),
  groups fuel (map (fun e => (fst e, g (snd e))) q) = map (map (fun e => (fst e, g (snd e)))) (groups fuel q).
Proof.
  induction fuel as [|f IH]; intros q; [reflexivity|].
  destruct q as [|[k x] r]; [reflexivity|]. cbn [map fst snd].
  rewrite !groups_cons, partition_map. cbn [fst snd map]. rewrite IH. reflexivity.
Qed.

Lemma deref_aset_eq hp r p : deref (aset r p hp) r = p.
Proof. unfold deref. rewrite alookup_aset_eq. reflexivity. Qed.
Lemma deref_aset_neq hp r r' p : r' <> r -> deref (aset r p hp) r' = deref hp r'.
Proof. intros Hne. unfold deref. rewrite alookup_aset_neq by exact Hne. reflexivity. Qed.
Lemma deref_upd_eq hp r f : deref (upd hp r f) r = f (deref hp r).
Proof. apply deref_aset_eq. Qed.
Lemma deref_upd_neq hp r r' f : r' <> r -> deref (upd hp r f) r' = deref hp r'.
Proof. apply deref_aset_neq. Qed.

Lemma upd_aset hp r p f : upd (aset r p hp) r f = aset r (f p) hp.
Proof.
  unfold upd. rewrite deref_aset_eq. unfold aset. cbn [aremove]. rewrite N.eqb_refl.
  rewrite (aremove_absent r (aremove r hp)) by apply alookup_aremove_eq. reflexivity.
Qed.

(* an upstream request as C16 wants it; host 0 is Honeycomb *)
Definition post_ok (o : out) : Prop :=
  match o with
  | Post true h k d evs => h = 0%N /\ Forall (fun p => p_probe p = false /\ p_host p = 0%N /\ p_key p = k /\ p_ds p = d) evs
  | _ => True
  end.

Fixpoint arr_sids (ops : list op) : list N :=
  match ops with [] => [] | Arr sid _ _ _ :: r => sid :: arr_sids r | _ :: r => arr_sids r end.

(* [hstep own keep_rule false], [hrun own keep_rule false]: [alias = false], the probe is a copy *)
Section Proofs.
  Variable own : N -> N.
  Variable keep_rule : N -> bool.

  Definition vals (hp : amap pay) (q : list (bkey * N)) : list (bkey * pay) :=
    map (fun e => (fst e, deref hp (snd e))) q.
  Definition below (n : N) (q : list (bkey * N)) : Prop := Forall (fun e => (snd e < n)%N) q.

  Definition abs (h : hstate) : vstate :=
    {| v_st := h_st h; v_dec := h_dec h; v_up := vals (h_hp h) (h_up h); v_pr := vals (h_hp h) (h_pr h);
       v_buf := h_buf h |}.
  Definition wf (h : hstate) : Prop := below (h_nxt h) (h_up h) /\ below (h_nxt h) (h_pr h).

  Lemma vals_aset hp q r p : below r q -> vals (aset r p hp) q = vals hp q.
  Proof.
    intros B. apply map_ext_in. intros e He.
    apply (proj1 (Forall_forall _ _) B) in He. rewrite deref_aset_neq by lia. reflexivity.
  Qed.
  Lemma vals_snoc hp q k r : vals hp (q ++ [(k, r)]) = vals hp q ++ [(k, deref hp r)].
  Proof. apply map_app. Qed.
  Lemma below_succ n q : below n q -> below (n + 1) q.
  Proof. apply Forall_impl. intros e He. lia. Qed.
  Lemma below_alloc n q k : below n q -> below (n + 1) (q ++ [(k, n)]).
  Proof. intros B. apply Forall_app. split; [apply below_succ, B|]. repeat constructor. cbn [snd]. lia. Qed.

  Hint Resolve below_succ below_alloc : heap.

  Lemma hpost_vals hp u g : hpost hp u g = vpost u (vals hp g).
  Proof.
    destruct g as [|[k r] g']; [reflexivity|].
    unfold hpost, vals. cbn [map vpost fst snd]. rewrite map_map. reflexivity.
  Qed.

  Lemma flush_posts hp u q :
    map (hpost hp u) (groups (length q) q) = map (vpost u) (groups (length (vals hp q)) (vals hp q)).
  Proof.
    unfold vals at 1. rewrite map_length. unfold vals. rewrite groups_map_snd, map_map.
    apply map_ext. intros g. apply hpost_vals.
  Qed.

  Lemma hstep_refines h o : wf h ->
    let '(h1, o1) := hstep own keep_rule false h o in wf h1 /\ vstep own keep_rule (abs h) o = (abs h1, o1).
  Proof.
    intros [Bu Bp]. unfold wf, abs.
    destruct o as [sid tid key ds|b| | |psid ptid pkey pds];
      cbn beta iota delta [hstep vstep v_st v_dec v_up v_pr v_buf].
    - (* Both machines branch on the same tests.  In every branch the heap machine only allocates the cells
         [h_nxt h] and [h_nxt h + 1]: the in-place updates fold into the allocated payloads ([upd_aset]), no queued
         reference points at the new cells ([vals_aset]), and a new entry is read back from its own cell. *)
      destruct (h_st h);
        [ destruct (match alookup tid (h_dec h) with Some d => d | None => keep_rule tid end);
          [destruct (N.eqb (own tid) 0)|]
        | destruct (N.eqb (own tid) 0);
          [destruct (mem_N tid (h_buf h)); [|destruct (alookup tid (h_dec h)) as [[|]|]]|] ].
      all: cbn [h_st h_dec h_up h_pr h_hp h_nxt h_buf]; rewrite ?upd_aset, ?deref_aset_eq.
      all: split; [split; auto with heap|].
      all: f_equal; f_equal; rewrite ?vals_snoc, ?vals_aset by auto with heap.
      all: rewrite ?deref_aset_neq by lia; rewrite ?deref_aset_eq; reflexivity.
    - (* Stress *) cbn [h_up h_pr h_nxt]. auto.
    - (* FlushUp *) cbn [h_st h_dec h_up h_pr h_hp h_nxt h_buf]. rewrite flush_posts.
      split; [split; [constructor|assumption]|reflexivity].
    - (* FlushPeer *) cbn [h_st h_dec h_up h_pr h_hp h_nxt h_buf]. rewrite flush_posts.
      split; [split; [assumption|constructor]|reflexivity].
    - (* Probe *) auto.
  Qed.

  Lemma hrun_refines : forall ops h,
    wf h -> snd (hrun own keep_rule false h ops) = snd (vrun own keep_rule (abs h) ops).
  Proof.
    induction ops as [|o r IH]; intros h W; [reflexivity|].
    cbn [hrun vrun].
    pose proof (hstep_refines h o W) as S. destruct (hstep own keep_rule false h o) as [h1 o1]. destruct S as [W1 ->].
    specialize (IH h1 W1).
    destruct (hrun own keep_rule false h1 r) as [h2 o2]. destruct (vrun own keep_rule (abs h1) r) as [v2 o2'].
    cbn [snd] in *. subst o2'. reflexivity.
  Qed.

  Lemma copy_refines_values ops : snd (hrun own keep_rule false hinit ops) = snd (vrun own keep_rule vinit ops).
  Proof. apply (hrun_refines ops hinit). split; constructor. Qed.

  Definition cached (dec : amap bool) (seen : list N) : Prop :=
    forall tid, alookup tid dec = if mem_N tid seen then Some (keep_rule tid) else None.
  (* (st, seen, buf): the state the specification lists are computed from *)
  Definition tracks (v : vstate) (st : bool) (seen buf : list N) : Prop :=
    v_st v = st /\ v_buf v = buf /\ cached (v_dec v) seen.

  Lemma cached_record dec seen tid :
    cached dec seen -> cached (if mem_N tid seen then dec else aset tid (keep_rule tid) dec) (tid :: seen).
  Proof.
    intros Hd t. cbn [mem_N]. destruct (mem_N tid seen) eqn:M.
    - rewrite Hd. destruct (N.eqb_spec t tid) as [->|_]; [rewrite M|]; reflexivity.
    - rewrite alookup_aset, Hd. destruct (N.eqb_spec t tid) as [->|_]; reflexivity.
  Qed.

  Lemma posted_vpost u u' g : posted u' (vpost u g) = if Bool.eqb u u' then map snd g else [].
  Proof. destruct g as [|[k p] g']; cbn [vpost posted map]; destruct (Bool.eqb u u'); reflexivity. Qed.

  Lemma all_posted_app u a b : all_posted u (a ++ b) = all_posted u a ++ all_posted u b.
  Proof. apply flat_map_app. Qed.

  Lemma all_posted_vposts u u' gs :
    all_posted u' (map (vpost u) gs) = if Bool.eqb u u' then map snd (concat gs) else [].
  Proof.
    unfold all_posted. induction gs as [|g r IH]; cbn [map flat_map concat]; [destruct (Bool.eqb u u'); reflexivity|].
    rewrite IH, posted_vpost. destruct (Bool.eqb u u'); [rewrite map_app|]; reflexivity.
  Qed.

  Lemma events_app a b : events (a ++ b) = events a ++ events b.
  Proof. apply filter_app. Qed.

  Lemma events_posts u (gs : list (list (bkey * pay))) : events (map (vpost u) gs) = [].
  Proof.
    induction gs as [|g r IH]; [reflexivity|]. cbn [map]. unfold events in *. cbn [filter].
    destruct g as [|[k p] g']; cbn [vpost is_post negb]; exact IH.
  Qed.

  (* What one operation does to the state of [spec_up], [spec_pr] and [spec_ev] and adds to each list, so that the
     machine can be compared with them step by step. *)
  Definition seen_after (st : bool) (seen : list N) (o : op) : list N :=
    match o with Arr _ tid _ _ => if st then tid :: seen else seen | _ => seen end.
  Definition st_after (st : bool) (o : op) : bool := match o with Stress b => b | _ => st end.
  Definition buf_after_op (st : bool) (seen buf : list N) (o : op) : list N :=
    match o with Arr _ tid _ _ => buf_after own st seen buf tid | _ => buf end.
  Definition step_up (st : bool) (seen buf : list N) (o : op) : list pay :=
    match o with Arr sid tid key ds => expect_up (fate_of own keep_rule st seen buf tid) sid tid key ds | _ => [] end.
  Definition step_pr (st : bool) (seen buf : list N) (o : op) : list pay :=
    match o with Arr sid tid key ds => expect_pr own (fate_of own keep_rule st seen buf tid) sid tid key ds | _ => [] end.
  Definition step_ev (st : bool) (seen buf : list N) (o : op) : list out :=
    match o with Arr sid tid key ds => expect_ev (fate_of own keep_rule st seen buf tid) sid | _ => [] end.

  Lemma spec_up_cons st seen buf o r : spec_up own keep_rule st seen buf (o :: r) =
    step_up st seen buf o ++ spec_up own keep_rule (st_after st o) (seen_after st seen o) (buf_after_op st seen buf o) r.
  Proof. destruct o; reflexivity. Qed.
  Lemma spec_pr_cons st seen buf o r : spec_pr own keep_rule st seen buf (o :: r) =
    step_pr st seen buf o ++ spec_pr own keep_rule (st_after st o) (seen_after st seen o) (buf_after_op st seen buf o) r.
  Proof. destruct o; reflexivity. Qed.
  Lemma spec_ev_cons st seen buf o r : spec_ev own keep_rule st seen buf (o :: r) =
    step_ev st seen buf o ++ spec_ev own keep_rule (st_after st o) (seen_after st seen o) (buf_after_op st seen buf o) r.
  Proof. destruct o; reflexivity. Qed.

  (* Conservation, per queue: posted plus left queued is what was queued plus what the specification expects. *)
  Lemma vstep_spec v st seen buf o :
    tracks v st seen buf ->
    let '(v1, o1) := vstep own keep_rule v o in
    tracks v1 (st_after st o) (seen_after st seen o) (buf_after_op st seen buf o) /\
    Permutation (all_posted true o1 ++ map snd (v_up v1)) (map snd (v_up v) ++ step_up st seen buf o) /\
    Permutation (all_posted false o1 ++ map snd (v_pr v1)) (map snd (v_pr v) ++ step_pr st seen buf o) /\
    events o1 = step_ev st seen buf o.
  Proof.
    unfold tracks. destruct v as [st0 dec up pr buf0]. cbn [v_st v_dec v_buf]. intros (-> & -> & Hd).
    destruct o as [sid tid key ds|b| | |psid ptid pkey pds];
      cbn [vstep st_after seen_after buf_after_op step_up step_pr step_ev v_st v_dec v_up v_pr v_buf].
    - (* With the cache lookup rewritten by the invariant, machine and specification are case expressions over the
         same tests.  In each branch the conjuncts then hold by computation, except the [cached] part of [tracks]:
         that is Hrec under stress, where the machine records the decision, and Hd otherwise. *)
      unfold fate_of, buf_after. rewrite (Hd tid).
      pose proof (cached_record _ _ tid Hd) as Hrec. revert Hrec.
      destruct st;
        [ destruct (mem_N tid seen), (keep_rule tid), (N.eqb (own tid) 0) eqn:OW
        | destruct (N.eqb (own tid) 0) eqn:OW; [destruct (mem_N tid buf), (mem_N tid seen), (keep_rule tid)|] ];
        intros Hrec.
      all: cbn [v_st v_dec v_up v_pr v_buf all_posted flat_map posted expect_up expect_pr expect_ev
                events filter is_post negb app].
      all: rewrite ?OW, ?map_app, ?app_nil_r; repeat split; assumption || apply Permutation_refl || reflexivity.
    - (* Stress *) cbn [v_st v_dec v_up v_pr v_buf all_posted flat_map events filter app].
      rewrite !app_nil_r. repeat split; assumption || apply Permutation_refl || reflexivity.
    - (* FlushUp: the batches posted are the upstream queue regrouped *)
      cbn [v_st v_dec v_up v_pr v_buf map]. rewrite !all_posted_vposts, !app_nil_r. cbn [Bool.eqb app].
      repeat split; try assumption;
        [apply Permutation_map, groups_perm; constructor|apply Permutation_refl|apply events_posts].
    - (* FlushPeer *)
      cbn [v_st v_dec v_up v_pr v_buf map]. rewrite !all_posted_vposts, !app_nil_r. cbn [Bool.eqb app].
      repeat split; try assumption;
        [apply Permutation_refl|apply Permutation_map, groups_perm; constructor|apply events_posts].
    - (* Probe *) cbn [all_posted flat_map events filter app].
      rewrite !app_nil_r. repeat split; assumption || apply Permutation_refl || reflexivity.
  Qed.

  Lemma vrun_spec : forall ops v st seen buf,
    tracks v st seen buf ->
    let '(v', outs) := vrun own keep_rule v ops in
    Permutation (all_posted true outs ++ map snd (v_up v')) (map snd (v_up v) ++ spec_up own keep_rule st seen buf ops) /\
    Permutation (all_posted false outs ++ map snd (v_pr v')) (map snd (v_pr v) ++ spec_pr own keep_rule st seen buf ops) /\
    events outs = spec_ev own keep_rule st seen buf ops.
  Proof.
    induction ops as [|o r IH]; intros v st seen buf HR.
    - cbn [vrun all_posted flat_map app spec_up spec_pr spec_ev events filter].
      rewrite !app_nil_r. repeat split; apply Permutation_refl.
    - cbn [vrun].
      pose proof (vstep_spec v st seen buf o HR) as S.
      destruct (vstep own keep_rule v o) as [v1 o1]. destruct S as (HR1 & Pu & Pp & Ev).
      specialize (IH v1 _ _ _ HR1).
      destruct (vrun own keep_rule v1 r) as [v2 o2]. destruct IH as (Pu2 & Pp2 & Ev2).
      rewrite spec_up_cons, spec_pr_cons, spec_ev_cons, !all_posted_app, events_app, Ev, Ev2.
      rewrite <- !app_assoc, Pu2, Pp2, !app_assoc, Pu, Pp. repeat split; reflexivity.
  Qed.

  Lemma tracks_init : tracks vinit false [] [].
  Proof. repeat split; reflexivity. Qed.

  Lemma vrun_app : forall a b v, vrun own keep_rule v (a ++ b) =
    let '(v1, o1) := vrun own keep_rule v a in let '(v2, o2) := vrun own keep_rule v1 b in (v2, o1 ++ o2).
  Proof.
    induction a as [|o r IH]; intros b v.
    - cbn [app vrun]. destruct (vrun own keep_rule v b). reflexivity.
    - cbn [app vrun]. destruct (vstep own keep_rule v o) as [v1 o1]. rewrite IH.
      destruct (vrun own keep_rule v1 r) as [v2 o2]. destruct (vrun own keep_rule v2 b) as [v3 o3].
      rewrite app_assoc. reflexivity.
  Qed.

  Theorem delivered_exactly ops :
    let outs := snd (hrun own keep_rule false hinit (ops ++ [FlushUp; FlushPeer])) in
    Permutation (all_posted true outs) (spec_up own keep_rule false [] [] ops) /\
    Permutation (all_posted false outs) (spec_pr own keep_rule false [] [] ops) /\
    events outs = spec_ev own keep_rule false [] [] ops.
  Proof.
    cbv zeta. rewrite copy_refines_values, vrun_app.
    pose proof (vrun_spec ops vinit false [] [] tracks_init) as S.
    destruct (vrun own keep_rule vinit ops) as [v1 o1]. destruct S as (Pu & Pp & Ev).
    (* the final dispatch posts what is still queued *)
    cbn [vrun vstep snd v_up v_pr].
    rewrite !all_posted_app, !events_app, !all_posted_vposts, !events_posts.
    cbn [Bool.eqb all_posted flat_map events filter]. rewrite !app_nil_r.
    rewrite !groups_perm by constructor. auto.
  Qed.

  (* the invariant of the upstream queue behind [post_ok]: the key an entry was queued under is still its event's *)
  Definition intact (e : bkey * pay) : Prop :=
    fst e = key_of (snd e) /\ p_probe (snd e) = false /\ p_host (snd e) = 0%N.

  Lemma vpost_ok g : (exists k, Forall (fun e => fst e = k) g) -> Forall intact g -> post_ok (vpost true g).
  Proof.
    (* the request takes host, key and dataset from its first event; the events of a batch share the batch key,
       which for an intact event is its own (host, key, dataset) *)
    intros [K FK] Fi. destruct g as [|[k0 x] rest]; cbn [vpost post_ok]; [split; [reflexivity|constructor]|].
    destruct (Forall_inv Fi) as (Kx & _ & Hx). pose proof (Forall_inv FK) as K0. cbn [fst snd] in *. subst K k0.
    split; [exact Hx|]. apply Forall_map. rewrite Forall_forall in *. intros e He.
    destruct (Fi e He) as (Ke & Pe & Hh). specialize (FK e He). rewrite Ke in FK. injection FK as _ E2 E3. auto.
  Qed.

  Lemma intact_snoc q p : Forall intact q -> p_probe p = false -> p_host p = 0%N -> Forall intact (q ++ [(key_of p, p)]).
  Proof. intros F Hp Hh. apply Forall_app. split; [exact F|]. repeat constructor; assumption. Qed.

  Lemma vstep_intact v o : Forall intact (v_up v) ->
    let '(v1, o1) := vstep own keep_rule v o in Forall intact (v_up v1) /\ Forall post_ok o1.
  Proof.
    intros F. destruct o as [sid tid key ds|b| | |psid ptid pkey pds]; cbn [vstep].
    - (* an arrival posts nothing and queues at most one event upstream; the case split follows the tests of
         [vstep], as in [hstep_refines] *)
      destruct (v_st v);
        [ destruct (match alookup tid (v_dec v) with Some d => d | None => keep_rule tid end);
          [destruct (N.eqb (own tid) 0)|]
        | destruct (N.eqb (own tid) 0);
          [destruct (mem_N tid (v_buf v)); [|destruct (alookup tid (v_dec v)) as [[|]|]]|] ].
      all: cbn [v_up]; split; [auto using intact_snoc|repeat constructor].
    - (* Stress *) cbn [v_up]. split; [exact F|constructor].
    - (* FlushUp: every batch is a group of intact entries under one key *)
      cbn [v_up]. split; [constructor|]. apply Forall_map, Forall_forall. intros g Hg.
      apply vpost_ok; [eapply groups_keyed; exact Hg|].
      rewrite Forall_forall in *. intros e He. apply F.
      eapply Permutation_in; [apply (groups_perm (length (v_up v))); constructor|].
      apply in_concat. exists g. split; assumption.
    - (* FlushPeer: peer requests are not constrained *)
      cbn [v_up]. split; [exact F|]. apply Forall_map, Forall_forall. intros [|[k p] g'] _; exact I.
    - (* Probe *) split; [exact F|constructor].
  Qed.

  Lemma vrun_intact : forall ops v, Forall intact (v_up v) -> Forall post_ok (snd (vrun own keep_rule v ops)).
  Proof.
    induction ops as [|o r IH]; intros v F; cbn [vrun]; [constructor|].
    pose proof (vstep_intact v o F) as S. destruct (vstep own keep_rule v o) as [v1 o1]. destruct S as [F1 P1].
    specialize (IH v1 F1). destruct (vrun own keep_rule v1 r) as [v2 o2]. cbn [snd] in *.
    apply Forall_app. split; assumption.
  Qed.

  Lemma spec_up_sids_sub : forall ops st seen buf x,
    In x (map p_sid (spec_up own keep_rule st seen buf ops)) -> In x (arr_sids ops).
  Proof.
    induction ops as [|o r IH]; intros st seen buf x Hin; [destruct Hin|].
    destruct o as [sid tid key ds|b| | |psid ptid pkey pds]; cbn [spec_up arr_sids] in *;
      try (eapply IH; exact Hin).
    rewrite map_app in Hin. apply in_app_or in Hin. destruct Hin as [Hin|Hin]; [left|right; eapply IH; exact Hin].
    (* the step lists nothing or the one event with span id sid *)
    destruct (fate_of own keep_rule st seen buf tid); cbn [expect_up map p_sid In] in Hin; tauto.
  Qed.

  (* C16 "exactly once": distinct span ids arrive, so no span is listed twice for Honeycomb *)
  Theorem spec_up_nodup : forall ops st seen buf,
    NoDup (arr_sids ops) -> NoDup (map p_sid (spec_up own keep_rule st seen buf ops)).
  Proof.
    induction ops as [|o r IH]; intros st seen buf ND; [constructor|].
    destruct o as [sid tid key ds|b| | |psid ptid pkey pds]; cbn [spec_up arr_sids] in *;
      try (apply IH; exact ND).
    inversion ND as [|? ? Hnot ND']; subst. rewrite map_app.
    destruct (fate_of own keep_rule st seen buf tid); cbn [expect_up map app]; try constructor; auto.
    all: intros Hin; apply Hnot; eapply spec_up_sids_sub; exact Hin.
  Qed.
End Proofs.

(* With the probe aliased to the queued cell the writes that make it a probe show in the upstream batch. *)
Definition wit_own (tid : N) : N := if N.eqb tid 1 then 1%N else 0%N.
Definition wit_rule (tid : N) : bool := true.
Definition wit_ops : list op := [Stress true; Arr 10 1 7 3; Arr 11 2 7 3; FlushUp; FlushPeer].

Lemma alias_refuted :
  snd (hrun wit_own wit_rule true hinit wit_ops) =
    [ Post true 1 7 3 [ mkPay 10 1 7 3 1 true true false; mkPay 11 2 7 3 0 true true false ];
      Post false 1 7 3 [ mkPay 10 1 7 3 1 true true false ] ] /\
  snd (hrun wit_own wit_rule false hinit wit_ops) =
    [ Post true 0 7 3 [ mkPay 10 1 7 3 0 false true false; mkPay 11 2 7 3 0 false true false ];
      Post false 1 7 3 [ mkPay 10 1 7 3 1 true true false ] ].
Proof. vm_compute. split; reflexivity. Qed.
