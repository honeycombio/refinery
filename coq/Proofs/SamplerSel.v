(* Proofs about Model/SamplerSel.v (C14): which API keys are classic ([is_legacy_spec]), what the
   sampler key and the lookup are in each case, and GetKeyFields as two sets of names, the
   root.-prefixed ones and the plain ones, from which it follows that whatever the selected
   sampler reads was extracted at ingestion. *)
From Refinery Require Import Lib.Base Lib.Strs_samp Model.SamplerSel.

Definition classic_config_key (k : str) : Prop :=
  length k = 32%nat /\ forallb is_hex_lower k = true.
(* "hc" [a-z] "ic_" followed by 58 of [0-9a-z] *)
Definition classic_ingest_key (k : str) : Prop :=
  exists x rest, k = [104; 99; x; 105; 99; 95]%N ++ rest /\ length rest = 58%nat /\
                 is_lower x = true /\ forallb is_alnum_lower rest = true.

Lemma is_legacy_spec k : is_legacy k = true <-> classic_config_key k \/ classic_ingest_key k.
Proof.
  unfold is_legacy, classic_config_key, classic_ingest_key. split.
  - destruct (Nat.eqb_spec (length k) 32) as [E32|_]; [auto|].
    destruct (Nat.eqb_spec (length k) 64) as [E64|_]; [|discriminate].
    destruct k as [|h [|c [|x [|i [|c2 [|us rest]]]]]]; try discriminate.
    rewrite !andb_true_iff, !N.eqb_eq. intros [[[[[[-> ->] ->] ->] ->] X] F].
    right. exists x, rest. cbn [length] in E64. repeat split; try assumption. lia.
  - intros [[L F]|[x [rest [-> [L [X F]]]]]].
    + rewrite L. exact F.
    + rewrite app_length, L. cbn. rewrite X, F. reflexivity.
Qed.

Lemma sampler_key_env prefix key env dataset :
  is_legacy key = false -> sampler_key prefix key env dataset = env.
Proof. unfold sampler_key. intros ->. reflexivity. Qed.

Lemma sampler_key_classic prefix key env dataset :
  is_legacy key = true ->
  sampler_key prefix key env dataset =
  match prefix with [] => dataset | _ => prefix ++ [DOT] ++ dataset end.
Proof. unfold sampler_key. intros ->. reflexivity. Qed.

Lemma sampler_key_classic_noprefix key env dataset :
  is_legacy key = true -> sampler_key [] key env dataset = dataset.
Proof. apply sampler_key_classic. Qed.

Lemma sampler_key_classic_prefix prefix key env dataset :
  is_legacy key = true -> prefix <> [] ->
  sampler_key prefix key env dataset = prefix ++ [DOT] ++ dataset.
Proof.
  intros H Hp. rewrite sampler_key_classic by exact H. destruct prefix; [contradiction|reflexivity].
Qed.

Lemma lookup_exact r name d : rfind name r = Some d -> lookup r name = Some d.
Proof. unfold lookup. intros ->. reflexivity. Qed.

Lemma lookup_default r name : rfind name r = None -> lookup r name = rfind DEFAULT r.
Proof. unfold lookup. intros ->. reflexivity. Qed.

Lemma rfind_In name r d : rfind name r = Some d -> In (name, d) r.
Proof.
  induction r as [|[n e] rest IH]; cbn [rfind]; [discriminate|].
  destruct (str_eqb_spec name n) as [->|_].
  - intros [= ->]. left. reflexivity.
  - intros H. right. apply IH, H.
Qed.

(* By definition: the trace's destination is that of its first event ([trace_dest]), and ingestion
   and decision both look the sampler key up in the rules and give its fields to GetKeyFields. *)
Lemma ingest_decide_agree prefix r first later :
  ingest_fields prefix r first = fst (sampler_reads (decide_sampler prefix r first later)).
Proof. reflexivity. Qed.

Lemma compact_In x l : In x (compact l) <-> In x l.
Proof.
  induction l as [|a [|b r] IH]; [reflexivity..|].
  cbn [compact]. destruct (str_eqb_spec a b) as [->|_]; cbn [In] in *; rewrite IH; tauto.
Qed.

(* the two lists GetKeyFields works with *)
Definition named (fields : list str) : list str := filter (fun f => negb (str_eqb f [])) fields.
Definition root_fields (fields : list str) : list str :=
  map (fun f => skipn (length ROOTP14) f) (filter (has_prefix ROOTP14) (named fields)).
Definition nonroot_fields (fields : list str) : list str :=
  filter (fun f => negb (has_prefix ROOTP14 f) && negb (has_prefix COMPP f)) (named fields).

Lemma named_In fields f : In f (named fields) <-> In f fields /\ f <> [].
Proof. unfold named. rewrite filter_In, negb_true_iff, str_eqb_neq. reflexivity. Qed.

Lemma root_fields_In fields f :
  In f fields -> has_prefix ROOTP14 f = true -> In (skipn (length ROOTP14) f) (root_fields fields).
Proof.
  intros Hin Hp. unfold root_fields. apply in_map, filter_In. split; [|exact Hp].
  apply named_In. split; [exact Hin|]. intros ->. discriminate Hp.
Qed.

Lemma nonroot_fields_In fields f :
  In f (nonroot_fields fields) <->
  In f fields /\ f <> [] /\ has_prefix ROOTP14 f = false /\ has_prefix COMPP f = false.
Proof.
  unfold nonroot_fields. rewrite filter_In, named_In, andb_true_iff, !negb_true_iff. tauto.
Qed.

Lemma get_key_fields_snd fields : snd (get_key_fields fields) = nonroot_fields fields.
Proof.
  unfold get_key_fields. cbv zeta. fold (named fields).
  fold (root_fields fields) (nonroot_fields fields).
  destruct (root_fields fields), (nonroot_fields fields); reflexivity.
Qed.

(* the three arms of GetKeyFields differ only in how the same names are listed *)
Lemma get_key_fields_fst_In fields f :
  In f (fst (get_key_fields fields)) <-> In f (root_fields fields) \/ In f (nonroot_fields fields).
Proof.
  unfold get_key_fields. cbv zeta. fold (named fields).
  fold (root_fields fields) (nonroot_fields fields).
  destruct (root_fields fields), (nonroot_fields fields); cbn [fst];
    rewrite ?compact_In, ?in_app_iff; cbn [In]; tauto.
Qed.

(* every non-root field the sampler reads (on any span) is among the extracted ones *)
Lemma nonroot_extracted fields f :
  In f (snd (get_key_fields fields)) -> In f (fst (get_key_fields fields)).
Proof. rewrite get_key_fields_snd, get_key_fields_fst_In. auto. Qed.

Lemma reads_available prefix r first later f :
  let s := decide_sampler prefix r first later in
  In f (fst (sampler_reads s)) \/ In f (snd (sampler_reads s)) ->
  In f (ingest_fields prefix r first).
Proof.
  intros s H. rewrite (ingest_decide_agree prefix r first later).
  destruct H as [H|H]; [exact H|apply nonroot_extracted, H].
Qed.
