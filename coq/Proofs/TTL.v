(* The lazily cleaned TTL containers refine the liveness specification.  Implementation and
   specification both hold an association list that is only ever looked at through an age filter
   (agree, in Lib/Base.v); the implementation's is the specification's with expiry instants for add
   instants, and possibly with expired entries already gone. *)
From Refinery Require Import Lib.Base Model.TTL.

Definition toexp (ttl : Z) (av : Z * N) : Z * N := (fst av + ttl, snd av).

Lemma keepf_toexp ttl nw k av : keepf nw (k, toexp ttl av) = live ttl nw (k, av).
Proof. unfold keepf, expired, live, toexp. cbn [fst snd]. lia. Qed.

Lemma cleanup_toexp ttl nw m :
  cleanup nw (mapv (toexp ttl) m) = mapv (toexp ttl) (filter (live ttl nw) m).
Proof. apply filter_mapv. intros k av. apply keepf_toexp. Qed.

(* Get reads the cleaned map too, although it does not store it *)
Lemma get_cleanup nw k m :
  NoDup (akeys m) ->
  match alookup k m with Some (e, v) => if expired nw e then None else Some v | None => None end =
  option_map snd (alookup k (cleanup nw m)).
Proof.
  intros Hnd. unfold cleanup. rewrite (alookup_filter _ _ _ Hnd).
  destruct (alookup k m) as [[e v]|]; [|reflexivity].
  unfold keepf. cbn [fst snd]. destruct (expired nw e); reflexivity.
Qed.

(* whatever was cleaned away at earlier instants is expired now *)
Definition refines (ttl : Z) (s : tstate) (sp : tspec) : Prop :=
  now s = snow sp /\ NoDup (akeys (items s)) /\
  agree (keepf (now s)) (items s) (mapv (toexp ttl) (last sp)).

Lemma refines_init ttl t0 : refines ttl (tinit t0) (sinit t0).
Proof. repeat split. constructor. Qed.

Lemma refines_cleanup ttl s sp :
  refines ttl s sp -> cleanup (now s) (items s) = mapv (toexp ttl) (live_entries ttl sp).
Proof. intros (Hnow & _ & H). unfold cleanup. rewrite H, Hnow. apply cleanup_toexp. Qed.

(* what Keys, Vals and Len leave behind *)
Lemma refines_cleaned ttl s sp : refines ttl s sp -> refines ttl {| now := now s; items := cleanup (now s) (items s) |} sp.
Proof.
  intros (Hnow & Hnd & H). split; [exact Hnow|].
  split; [apply NoDup_akeys_filter; exact Hnd|apply agree_filter_l; exact H].
Qed.

Lemma keepf_mono nw nw' kv : nw <= nw' -> keepf nw' kv = true -> keepf nw kv = true.
Proof. unfold keepf, expired. lia. Qed.

Lemma step_refines ttl s sp o :
  op_ok o = true -> refines ttl s sp ->
  snd (tstep ttl s o) = snd (sstep ttl sp o) /\ refines ttl (fst (tstep ttl s o)) (fst (sstep ttl sp o)).
Proof.
  intros Hop HR. pose proof (refines_cleanup ttl s sp HR) as Hcl. pose proof HR as (Hnow & Hnd & H).
  destruct o as [k v|k|k| | | |d]; unfold refines at 1; cbn [tstep sstep fst snd now items snow last].
  - (* Put *)
    split; [reflexivity|]. split; [exact Hnow|]. split; [apply NoDup_akeys_aset; exact Hnd|].
    rewrite mapv_aset, <- Hnow. apply agree_aset. exact H.
  - (* Del *)
    split; [reflexivity|]. split; [exact Hnow|]. split; [apply NoDup_akeys_aremove; exact Hnd|].
    rewrite mapv_aremove. apply agree_aremove. exact H.
  - split; [|exact HR]. rewrite (get_cleanup _ _ _ Hnd), Hcl, alookup_mapv.
    destruct (alookup k (live_entries ttl sp)); reflexivity.
  - (* Keys, Vals, Len: toexp changes neither keys nor values nor the number of entries *)
    split; [|apply refines_cleaned; exact HR]. rewrite Hcl, akeys_mapv. reflexivity.
  - split; [|apply refines_cleaned; exact HR]. rewrite Hcl. unfold mapv. rewrite map_map. reflexivity.
  - split; [|apply refines_cleaned; exact HR]. rewrite Hcl. unfold mapv. rewrite map_length. reflexivity.
  - (* Advance *)
    apply Z.leb_le in Hop. split; [reflexivity|]. split; [lia|]. split; [exact Hnd|].
    apply (agree_mono (keepf (now s))); [|exact H].
    intros kv. apply keepf_mono. lia.
Qed.

Lemma run_refines ttl ops : forall s sp,
  ops_ok ops = true -> refines ttl s sp -> trun ttl s ops = srun ttl sp ops.
Proof.
  induction ops as [|o r IH]; intros s sp Hok HR; cbn [trun srun]; [reflexivity|].
  apply andb_true_iff in Hok as [Ho Hr].
  destruct (step_refines ttl s sp o Ho HR) as [Hout HR'].
  destruct (tstep ttl s o) as [s' out], (sstep ttl sp o) as [sp' out'].
  cbn [fst snd] in *. subst out'. f_equal. apply IH; assumption.
Qed.

(* the hypothesis 0 <= ttl is there because the property is stated for TTL >= 0; the proof does not use it *)
Theorem ttl_refines_spec ttl t0 ops :
  0 <= ttl -> ops_ok ops = true -> trun ttl (tinit t0) ops = srun ttl (sinit t0) ops.
Proof. intros _ Hok. apply run_refines; [exact Hok|apply refines_init]. Qed.
