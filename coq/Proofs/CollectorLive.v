(* Liveness under arbitrary interleaved traffic (C02 "eventually decided"):
   a buffered trace whose deadline d has passed is decided after at most ceil((ahead+1)/m) further send
   ticks, whatever else happens in between, where ahead = number of other buffered traces with
   deadline <= d and m = the smallest MaxExpiredTraces in force.  New or re-timed traces can never get
   ahead of it: every deadline set after instant d is later than d. *)
From Refinery Require Import Lib.Base Model.Collector Gen.GenC01 Proofs.CollectorAbs Proofs.CollectorRef Proofs.CollectorTime.

(* the fallbacks are constants read from the Go source (Gen/GenC01.v) *)
Lemma fallbacks_positive : 0 < trace_timeout_fallback /\ 0 < send_delay_fallback.
Proof. vm_compute. split; reflexivity. Qed.

Section Live.
  Variable sampler : N -> list span -> bool.
  Variable dry : bool.
  Notation step := (step sampler dry).
  Notation step_total := (step_total sampler dry).
  Notation run := (run sampler dry).

  Variable t : N.       (* the trace we follow *)
  Variable d : Z.       (* its deadline *)

  Definition pahead (kv : N * trace) : bool := (t_sendby (snd kv) <=? d) && negb (N.eqb (fst kv) t).
  Definition ahead (b : amap trace) : nat := length (filter pahead b).
  Definition waiting (w : wstate) : Prop := exists tr, alookup t (w_buf w) = Some tr /\ t_sendby tr = d.
  Definition cfg_nonneg (c : cfg) : Prop := 0 <= c_tt c /\ 0 <= c_sd c.
  (* MaxExpiredTraces is unlimited, or at least m *)
  Definition me_ok (m : Z) (c : cfg) : Prop := c_me c <= 0 \/ m <= c_me c.

  Definition op_after (m : Z) (o : op) : Prop :=
    match o with
    | OSpan now _ => d < now
    | OTick now _ => d <= now
    | OReload c => cfg_nonneg c /\ me_ok m c
    | _ => True
    end.

  Lemma eff_nonneg c : cfg_nonneg c -> 0 <= eff_tt c /\ 0 <= eff_sd c.
  Proof.
    intros [H1 H2]. destruct fallbacks_positive as [F1 F2]. unfold eff_tt, eff_sd.
    destruct (c_tt c =? 0), (c_sd c =? 0); lia.
  Qed.

  Lemma add_span_after c now tr s :
    cfg_nonneg c -> d < now ->
    t_sendby (add_span c now tr s) = t_sendby tr \/ d < t_sendby (add_span c now tr s).
  Proof.
    intros Hc Hnow. destruct (eff_nonneg c Hc) as [_ Hsd]. unfold add_span. cbn [t_sendby].
    destruct (_ && _); [right|left; reflexivity]. destruct (over_limit c _); lia.
  Qed.

  Lemma pahead_add_span c now k tr s :
    cfg_nonneg c -> d < now -> pahead (k, add_span c now tr s) = true -> pahead (k, tr) = true.
  Proof.
    intros Hc Hnow. unfold pahead. cbn [fst snd]. rewrite !andb_true_iff, !Z.leb_le. intros [H1 H2].
    split; [|exact H2]. destruct (add_span_after c now tr s Hc Hnow) as [E|E]; lia.
  Qed.

  Lemma pahead_new c now k s : cfg_nonneg c -> d < now -> pahead (k, add_span c now (new_trace c now) s) = false.
  Proof.
    intros Hc Hnow. destruct (eff_nonneg c Hc) as [Htt _].
    destruct (pahead (k, add_span c now (new_trace c now) s)) eqn:P; [|reflexivity].
    apply pahead_add_span, andb_true_iff, proj1, Z.leb_le in P; [|assumption..]. cbn in P. lia.
  Qed.

  Lemma ahead_aset k v b : ahead (aset k v b) = (Nat.b2n (pahead (k, v)) + ahead (aremove k b))%nat.
  Proof. unfold ahead, aset. cbn [filter]. destruct (pahead (k, v)); reflexivity. Qed.

  Lemma waiting_remove_all ch w w' :
    w_buf w' = remove_all ch (w_buf w) -> waiting w ->
    alookup t (w_buf w') = None \/ (~ In t ch /\ waiting w').
  Proof.
    intros Hb [tr Hw]. unfold waiting. rewrite Hb, alookup_remove_all.
    destruct (in_dec N.eq_dec t ch) as [Hin|Hnin]; [left; reflexivity|right; eauto].
  Qed.

  Lemma span_progress w now s :
    NoDup (akeys (w_buf w)) -> cfg_nonneg (w_cfg w) -> waiting w -> d < now ->
    waiting (fst (step_span dry w now s)) /\
    (ahead (w_buf (fst (step_span dry w now s))) <= ahead (w_buf w))%nat.
  Proof.
    intros Hnd Hc [tr [Hl Hd]] Hnow. unfold Collector.step_span, waiting.
    destruct (alookup (s_tid s) (w_buf w)) as [tr0|] eqn:L0; [|destruct (alookup (s_tid s) (w_dec w))];
      cbn [fst set_buf w_buf]; rewrite ?alookup_aset, ?ahead_aset.
    - split.
      + destruct (N.eqb_spec t (s_tid s)) as [E|_]; [|eauto]. rewrite <- E in L0.
        (* its own deadline cannot be raised, and after d it cannot be lowered *)
        assert (tr0 = tr) by congruence. subst tr0. eexists. split; [reflexivity|].
        destruct (add_span_after (w_cfg w) now tr s Hc Hnow) as [E1|E1]; [congruence|].
        pose proof (sendby_never_raised (w_cfg w) now tr s). lia.
      + unfold ahead. rewrite (length_filter_aremove pahead _ tr0 _ Hnd L0).
        destruct (pahead (_, add_span _ _ _ _)) eqn:P; [rewrite (pahead_add_span _ _ _ _ _ Hc Hnow P)|];
          cbn [Nat.b2n]; lia.
    - split; [eauto|lia].
    - split; [destruct (N.eqb_spec t (s_tid s)); [congruence|eauto]|].
      rewrite (pahead_new _ _ _ _ Hc Hnow), (aremove_absent _ _ L0). apply Nat.le_refl.
  Qed.

  (* t is decided, or keeps waiting and nobody got ahead; a tick that does not decide it removes exactly
     MaxExpiredTraces traces ahead of it *)
  Lemma step_progress m w o w' e :
    NoDup (akeys (w_buf w)) -> cfg_nonneg (w_cfg w) -> waiting w -> op_after m o ->
    step w o = Some (w', e) ->
    alookup t (w_buf w') = None \/
    (waiting w' /\
     match o with
     | OTick _ _ => 0 < c_me (w_cfg w) /\ Z.of_nat (ahead (w_buf w')) + c_me (w_cfg w) = Z.of_nat (ahead (w_buf w))
     | _ => (ahead (w_buf w') <= ahead (w_buf w))%nat
     end).
  Proof.
    intros Hnd Hc Hw Hop Hs. destruct o as [now s|now ch|bytes ch|c|t0]; cbn [Collector.step op_after] in *.
    - right. injection Hs as Hs. apply (f_equal fst) in Hs. cbn [fst] in Hs. subst w'.
      apply span_progress; assumption.
    - destruct (tick_spec _ _ _ _ _ _ _ Hs) as [Hb [_ [Hmax Hstop]]].
      destruct (waiting_remove_all ch w w' Hb Hw) as [G|[Hnin [tr' [Hl' Hd']]]]; [left; exact G|right].
      split; [exists tr'; split; assumption|].
      destruct Hstop as [[Hpos Hfull]|Hnone]; [|specialize (Hnone _ (alookup_In _ _ _ Hl')); cbn in Hnone; lia].
      split; [exact Hpos|]. specialize (Hmax Hpos). destruct Hw as [tr [Hl Hd]].
      assert (Hp : forall k trk, k <> t -> t_sendby trk <= t_sendby tr -> pahead (k, trk) = true).
      { intros k trk Hk Hle. apply (ahead_true t d k trk Hk). lia. }
      pose proof (tick_takes_ahead _ _ _ _ _ _ _ t tr pahead Hnd Hs Hl Hnin Hp) as Hcount. unfold ahead. lia.
    - destruct (eject_spec _ _ _ _ _ _ _ Hs) as [l [_ [Hb _]]].
      destruct (waiting_remove_all ch w w' Hb Hw) as [G|[_ Hw']]; [left; exact G|right; split; [exact Hw'|]].
      unfold ahead. rewrite Hb. apply length_filter_remove_all_le.
    - injection Hs as <- _. right. split; [exact Hw|apply Nat.le_refl].
    - injection Hs as <- _. right. split; [exact Hw|apply Nat.le_refl].
  Qed.

  Fixpoint all_valid (w : wstate) (ops : list op) : Prop :=
    match ops with
    | [] => True
    | o :: r => step w o <> None /\ all_valid (fst (step_total w o)) r
    end.

  Lemma all_valid_always ops : forall w, (forall o w0, In o ops -> step w0 o <> None) -> all_valid w ops.
  Proof.
    induction ops as [|o r IH]; intros w H; [exact I|].
    split; [apply H; left; reflexivity|apply IH; intros o' w0 Ho'; apply H; right; exact Ho'].
  Qed.

  Definition is_tick (o : op) : bool := match o with OTick _ _ => true | _ => false end.
  Definition n_ticks (ops : list op) : Z := Z.of_nat (length (filter is_tick ops)).

  Theorem due_trace_decided_interleaved m : forall ops w,
    0 < m ->
    NoDup (akeys (w_buf w)) -> cfg_nonneg (w_cfg w) -> me_ok m (w_cfg w) -> waiting w ->
    Forall (op_after m) ops -> all_valid w ops ->
    Z.of_nat (ahead (w_buf w)) < m * n_ticks ops ->
    exists k, alookup t (w_buf (fst (run w (firstn k ops)))) = None.
  Proof.
    induction ops as [|o r IH]; intros w Hm Hnd Hc Hme Hw Hops Hval Hlt; [cbn in Hlt; lia|].
    inversion Hops as [|? ? Ho Hr]; subst. destruct Hval as [Hv Hval].
    destruct (step w o) as [[w1 e]|] eqn:Hstep; [|congruence].
    assert (Hst : step_total w o = (w1, e)) by (unfold Collector.step_total; rewrite Hstep; reflexivity).
    rewrite Hst in Hval.
    assert (Hrun : forall k, fst (run w (firstn (S k) (o :: r))) = fst (run w1 (firstn k r))).
    { intros k. cbn [firstn]. rewrite run_cons, Hst. reflexivity. }
    destruct (step_progress m w o w1 e Hnd Hc Hw Ho Hstep) as [Hgone|[Hw1 Hmeasure]].
    - exists 1%nat. rewrite Hrun. exact Hgone.
    - (* only a reload changes the configuration, and [op_after] asks of it what is asked of the first *)
      assert (Hcfg : cfg_nonneg (w_cfg w1) /\ me_ok m (w_cfg w1)).
      { rewrite (proj1 (step_cfg_buf _ _ _ _ _ _ Hstep)). destruct o; try (split; assumption). exact Ho. }
      destruct (IH w1) as [k Hk]; try assumption; try apply Hcfg.
      + exact (step_nodup _ _ _ _ _ _ Hnd Hstep).
      + (* a tick pays c_me >= m traces ahead for one unit of n_ticks; other ops cost nothing *)
        unfold n_ticks in *. cbn [filter] in Hlt. destruct o; cbn [is_tick length] in Hlt; try lia.
        destruct Hmeasure as [Hpos Heq]. destruct Hme as [Hz|Hge]; [lia|nia].
      + exists (S k). rewrite Hrun. exact Hk.
  Qed.

  (* k ticks at or after every buffered deadline empty a buffer of at most k * MaxExpiredTraces traces
     (0 is unlimited: one tick).  C02_eventually_decided asks of each tick that it be a step in every
     state, of which [all_valid_always] makes the premise used here. *)
  Theorem late_ticks_drain : forall (ticks : list (Z * list N)) w,
    NoDup (akeys (w_buf w)) ->
    (forall nc, In nc ticks -> forall kv, In kv (w_buf w) -> t_sendby (snd kv) <= fst nc) ->
    all_valid w (map (fun nc => OTick (fst nc) (snd nc)) ticks) ->
    (c_me (w_cfg w) <= 0 -> ticks <> []) ->
    (0 < c_me (w_cfg w) -> Z.of_nat (length (w_buf w)) <= Z.of_nat (length ticks) * c_me (w_cfg w)) ->
    w_buf (fst (run w (map (fun nc => OTick (fst nc) (snd nc)) ticks))) = [].
  Proof.
    (* an empty buffer needs no tick: with this weaker premise the induction goes through *)
    intros ticks w Hnd Hlate Hvalid Hz Hpos.
    assert (Hz' : c_me (w_cfg w) <= 0 -> w_buf w <> [] -> ticks <> []) by auto.
    clear Hz. revert w Hnd Hlate Hvalid Hz' Hpos.
    induction ticks as [|[now ch] rest IH]; intros w Hnd Hlate Hvalid Hz Hpos.
    - cbn. destruct (w_buf w); [reflexivity|exfalso].
      destruct (Z_le_gt_dec (c_me (w_cfg w)) 0) as [Hle|Hgt]; [apply (Hz Hle); [discriminate|reflexivity]|].
      specialize (Hpos ltac:(lia)). cbn in Hpos. lia.
    - cbn [map all_valid fst snd] in *. destruct Hvalid as [Hv Hvalid]. rewrite run_cons.
      unfold Collector.step_total in *. destruct (step w (OTick now ch)) as [[w1 e]|] eqn:S; [|congruence].
      cbn [fst] in *.
      pose proof (tick_drains _ _ _ _ _ _ _ Hnd S (Hlate (now, ch) (or_introl eq_refl))) as Hd.
      destruct (step_tick_inv _ _ _ _ _ _ _ S) as [l [_ [Hb [Hc _]]]]. rewrite <- Hc in Hd, Hpos. apply IH.
      * exact (step_nodup _ _ _ _ _ _ Hnd S).
      * intros nc Hin kv Hkv. apply (Hlate nc (or_intror Hin)). rewrite Hb in Hkv. apply In_remove_all in Hkv. tauto.
      * exact Hvalid.
      * intros Hle Hne. destruct Hd as [He|[Hm _]]; [contradiction|lia].
      * intros Hm. specialize (Hpos Hm). cbn [length] in Hpos. destruct Hd as [->|[_ Hlen]]; [cbn [length]|]; nia.
  Qed.
End Live.
