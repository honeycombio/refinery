(* Invariants of the abstract collector machine (Model/Collector.v, [astep]).  What C01 / C02 say about
   "all or none" and "never for a dropped trace" is read off [AInv] through [abs_place], "single decision"
   through [abs_single_decision]; "exactly once" and "nothing invented" are read off [Bounded] (no pair is
   handed over more often than it was accepted).  The detailed worker model refines the machine (Proofs/CollectorRef.v). *)
From Refinery Require Import Lib.Base Model.Collector.

Lemma pair_in_map (t t' s : N) ss : In (t', s) (map (pair t) ss) <-> t' = t /\ In s ss.
Proof. rewrite in_map_iff. split; [intros [y [[= <- <-] H]]|intros [-> H]; exists s]; auto. Qed.

Definition of_trace {B} (t : N) (l : list (N * B)) : list (N * B) := filter (fun p => N.eqb (fst p) t) l.

Lemma of_trace_cons {B} t t0 (b : B) l :
  of_trace t ((t0, b) :: l) = if N.eqb t t0 then (t0, b) :: of_trace t l else of_trace t l.
Proof. rewrite N.eqb_sym. reflexivity. Qed.

Lemma of_trace_app {B} t (l1 l2 : list (N * B)) : of_trace t (l1 ++ l2) = of_trace t l1 ++ of_trace t l2.
Proof. apply filter_app. Qed.

Lemma of_trace_map_pair t t0 (ss : list N) : of_trace t (map (pair t0) ss) = if N.eqb t t0 then map (pair t0) ss else [].
Proof.
  induction ss as [|s r IH]; cbn [map]; [destruct (N.eqb t t0); reflexivity|].
  rewrite of_trace_cons, IH. destruct (N.eqb t t0); reflexivity.
Qed.

Lemma in_of_trace {B} t (b : B) l : In (t, b) (of_trace t l) <-> In (t, b) l.
Proof. unfold of_trace. rewrite filter_In. cbn [fst]. rewrite N.eqb_refl. tauto. Qed.

Definition key_dec (a b : N * N) : {a = b} + {a <> b}.
Proof. decide equality; apply N.eq_dec. Defined.
Notation cnt := (count_occ key_dec).

Lemma cnt_map_pair_other (t0 : N) ss (t s : N) : t <> t0 -> cnt (map (pair t0) ss) (t, s) = 0%nat.
Proof. intros H. apply count_occ_not_In. rewrite pair_in_map. tauto. Qed.

Section Abs.
  Variable dry : bool.
  Notation astep := (astep dry).
  Notation arun := (arun dry).

  Definition never_forgotten (x : ast) (t : N) : Prop := ~ In t (a_fgt x).
  Definition occ (t : N) (h : list (N * bool)) : list (N * bool) :=
    filter (fun p => N.eqb (fst p) t) h.
  Definition spans (b : amap (list N)) (t : N) : list N :=
    match alookup t b with Some ss => ss | None => [] end.

  Lemma spans_aset b t t0 ss : spans (aset t0 ss b) t = if N.eqb t t0 then ss else spans b t.
  Proof. unfold spans. rewrite alookup_aset. destruct (N.eqb t t0); reflexivity. Qed.
  Lemma spans_aremove b t t0 : spans (aremove t0 b) t = if N.eqb t t0 then [] else spans b t.
  Proof. unfold spans. rewrite alookup_aremove. destruct (N.eqb t t0); reflexivity. Qed.

  Definition placed (x : ast) (t : N) : Prop :=
    match alookup t (a_dec x) with
    | None => of_trace t (a_out x) = [] /\ of_trace t (a_acc x) = map (pair t) (spans (a_buf x) t) /\
              occ t (a_hist x) = []
    | Some k => alookup t (a_buf x) = None /\
                of_trace t (a_out x) = (if k || dry then of_trace t (a_acc x) else []) /\
                occ t (a_hist x) = [(t, k)]
    end.

  (* [placed] fails once a decision is forgotten: the trace may be buffered and decided again, differently,
     while what was handed over stays handed over. *)
  Record AInv (x : ast) : Prop := {
    inv_buf_undec : forall t, alookup t (a_buf x) <> None -> alookup t (a_dec x) = None;
    inv_placed : forall t, never_forgotten x t -> placed x t
  }.

  Lemma ainit_inv : AInv ainit.
  Proof. constructor; [intros t H; reflexivity|intros t _; repeat split]. Qed.

  Lemma astep_span_undec x t s :
    alookup t (a_dec x) = None ->
    astep x (ASpan t s) =
    {| a_buf := aset t (s :: spans (a_buf x) t) (a_buf x); a_dec := a_dec x; a_out := a_out x;
       a_acc := (t, s) :: a_acc x; a_fgt := a_fgt x; a_hist := a_hist x |}.
  Proof. intros D. cbn. unfold spans. destruct (alookup t (a_buf x)); [|rewrite D]; reflexivity. Qed.

  Lemma astep_span_late x t s k :
    (forall t, alookup t (a_buf x) <> None -> alookup t (a_dec x) = None) -> alookup t (a_dec x) = Some k ->
    astep x (ASpan t s) =
    {| a_buf := a_buf x; a_dec := a_dec x; a_out := (if k || dry then [(t, s)] else []) ++ a_out x;
       a_acc := (t, s) :: a_acc x; a_fgt := a_fgt x; a_hist := a_hist x |}.
  Proof.
    intros I1 D. cbn. destruct (alookup t (a_buf x)) eqn:B; [rewrite I1 in D; congruence|]. rewrite D. reflexivity.
  Qed.

  Lemma astep_decide x t k :
    astep x (ADecide t k) =
    match alookup t (a_buf x) with
    | None => x
    | Some _ => {| a_buf := aremove t (a_buf x); a_dec := aset t k (a_dec x);
                   a_out := (if k || dry then map (pair t) (spans (a_buf x) t) else []) ++ a_out x;
                   a_acc := a_acc x; a_fgt := a_fgt x; a_hist := (t, k) :: a_hist x |}
    end.
  Proof. cbn. unfold spans. destruct (alookup t (a_buf x)); reflexivity. Qed.

  Lemma occ_cons t t0 k h : occ t ((t0, k) :: h) = if N.eqb t t0 then (t0, k) :: occ t h else occ t h.
  Proof. apply of_trace_cons. Qed.

  Lemma astep_inv x o : AInv x -> AInv (astep x o).
  Proof.
    intros [I1 P]. destruct o as [t0 s0 | t0 keep | t0].
    - destruct (alookup t0 (a_dec x)) as [k0|] eqn:D.
      + rewrite (astep_span_late _ _ _ _ I1 D). constructor; [exact I1|]. intros t Hn. specialize (P t Hn).
        unfold placed in *. cbn [a_buf a_dec a_out a_acc a_hist].
        destruct (k0 || dry) eqn:F; cbn [app]; rewrite ?of_trace_cons;
          (destruct (N.eqb_spec t t0) as [->|_]; [|exact P]).
        * rewrite D, F in *. destruct P as (Pb & -> & Ph). repeat split; assumption.
        * rewrite D, F in *. exact P.
      + rewrite (astep_span_undec _ _ _ D). constructor; cbn [a_buf a_dec a_out a_acc a_hist].
        * intros t. rewrite alookup_aset. destruct (N.eqb_spec t t0) as [->|_]; [intros _; exact D|apply I1].
        * intros t Hn. specialize (P t Hn). unfold placed in *. cbn [a_buf a_dec a_out a_acc a_hist].
          rewrite alookup_aset, spans_aset, of_trace_cons. destruct (N.eqb_spec t t0) as [->|_]; [|exact P].
          rewrite D in *. destruct P as (Po & -> & Ph). repeat split; assumption.
    - rewrite astep_decide. destruct (alookup t0 (a_buf x)) eqn:B; [|constructor; assumption].
      assert (D : alookup t0 (a_dec x) = None) by (apply I1; congruence).
      constructor; cbn [a_buf a_dec a_out a_acc a_hist].
      + intros t. rewrite alookup_aremove, alookup_aset. destruct (N.eqb t t0); [congruence|apply I1].
      + intros t Hn. specialize (P t Hn). unfold placed in *. cbn [a_buf a_dec a_out a_acc a_hist].
        rewrite alookup_aset, alookup_aremove, spans_aremove, occ_cons, of_trace_app.
        destruct (keep || dry) eqn:F; rewrite ?of_trace_map_pair; (destruct (N.eqb_spec t t0) as [->|_]; [|exact P]);
          rewrite D in P; destruct P as (-> & -> & ->); rewrite ?F, ?app_nil_r; repeat split.
    - (* AForget: nothing is claimed of t0 any more *)
      constructor; cbn [Collector.astep a_buf a_dec a_out a_acc a_hist].
      + intros t Hb. rewrite alookup_aremove, (I1 t Hb). destruct (N.eqb t t0); reflexivity.
      + intros t Hn. unfold never_forgotten in Hn. cbn [a_fgt In] in Hn. unfold placed. cbn [a_buf a_dec a_out a_acc a_hist].
        rewrite alookup_aremove_neq by (intros ->; tauto). apply P. intros F. tauto.
  Qed.

  Lemma arun_inv ops : forall x, AInv x -> AInv (arun x ops).
  Proof. induction ops as [|o r IH]; intros x I; [exact I|]. apply IH, astep_inv, I. Qed.

  Lemma arun_app x l1 l2 : arun x (l1 ++ l2) = arun (arun x l1) l2.
  Proof. apply fold_left_app. Qed.

  Definition accepted (ops : list aop) : list (N * N) :=
    flat_map (fun o => match o with ASpan t s => [(t, s)] | _ => [] end) ops.
  Definition forgotten (ops : list aop) : list N :=
    flat_map (fun o => match o with AForget t => [t] | _ => [] end) ops.

  Lemma ghost_astep x o :
    a_acc (astep x o) = accepted [o] ++ a_acc x /\ a_fgt (astep x o) = forgotten [o] ++ a_fgt x.
  Proof. destruct o; cbn; repeat destruct (alookup _ _); split; reflexivity. Qed.

  Lemma ghost_arun ops : forall x,
    a_acc (arun x ops) = rev (accepted ops) ++ a_acc x /\ a_fgt (arun x ops) = rev (forgotten ops) ++ a_fgt x.
  Proof.
    induction ops as [|o r IH]; intros x; [split; reflexivity|].
    change (arun x (o :: r)) with (arun (astep x o) r). destruct (IH (astep x o)) as [-> ->].
    destruct (ghost_astep x o) as [-> ->]. cbn [accepted forgotten flat_map].
    rewrite !rev_app_distr, <- !app_assoc. destruct o; split; reflexivity.
  Qed.

  Lemma astep_dec_stable x o t k :
    AInv x -> alookup t (a_dec x) = Some k -> o <> AForget t -> alookup t (a_dec (astep x o)) = Some k.
  Proof.
    intros I Hd Hne. destruct o as [t0 s0|t0 keep|t0]; cbn [Collector.astep].
    - destruct (alookup t0 (a_buf x)); [exact Hd|]. destruct (alookup t0 (a_dec x)); exact Hd.
    - destruct (alookup t0 (a_buf x)) eqn:B; [|exact Hd]. cbn [a_dec]. rewrite alookup_aset.
      destruct (N.eqb_spec t t0) as [->|_]; [|exact Hd]. rewrite (inv_buf_undec x I) in Hd; congruence.
    - cbn [a_dec]. rewrite alookup_aremove. destruct (N.eqb_spec t t0); [congruence|exact Hd].
  Qed.

  Lemma arun_dec_stable ops : forall x t k,
    AInv x -> alookup t (a_dec x) = Some k -> ~ In t (forgotten ops) -> alookup t (a_dec (arun x ops)) = Some k.
  Proof.
    induction ops as [|o r IH]; intros x t k I Hd Hn; [exact Hd|].
    cbn [forgotten flat_map] in Hn. rewrite in_app_iff in Hn.
    apply IH; [apply astep_inv, I| |tauto].
    apply astep_dec_stable; [exact I|exact Hd|]. intros ->. apply Hn. left; left; reflexivity.
  Qed.

  Theorem abs_place x t :
    AInv x -> never_forgotten x t ->
    match alookup t (a_dec x) with
    | None => forall s, ~ In (t, s) (a_out x) /\ (In (t, s) (a_acc x) -> In s (spans (a_buf x) t))
    | Some k => alookup t (a_buf x) = None /\
                forall s, In (t, s) (a_out x) <-> k || dry = true /\ In (t, s) (a_acc x)
    end.
  Proof.
    intros I Hn. pose proof (inv_placed x I t Hn) as P. unfold placed in P.
    destruct (alookup t (a_dec x)) as [k|].
    - destruct P as (Pb & Po & _). split; [exact Pb|]. intros s. rewrite <- (in_of_trace t s (a_out x)), Po.
      destruct (k || dry); [rewrite in_of_trace; tauto|cbn [In]; intuition discriminate].
    - destruct P as (Po & Pa & _). intros s. split.
      + rewrite <- in_of_trace, Po. intros [].
      + rewrite <- in_of_trace, Pa, pair_in_map. tauto.
  Qed.

  Theorem abs_single_decision x t :
    AInv x -> never_forgotten x t ->
    occ t (a_hist x) = match alookup t (a_dec x) with Some k => [(t, k)] | None => [] end.
  Proof.
    intros I Hn. pose proof (inv_placed x I t Hn) as P. unfold placed in P.
    destruct (alookup t (a_dec x)); apply P.
  Qed.

  (* A step that accepts a span puts it in the output or the buffer (or drops it), a decision moves the
     buffered spans of the trace to the output (or drops them). *)
  Definition Bounded (x : ast) : Prop := forall t s,
    (cnt (a_out x) (t, s) + cnt (map (pair t) (spans (a_buf x) t)) (t, s) <= cnt (a_acc x) (t, s))%nat.

  Lemma ainit_bounded : Bounded ainit.
  Proof. intros t s. apply Nat.le_refl. Qed.

  Lemma astep_bounded x o : Bounded x -> Bounded (astep x o).
  Proof.
    intros B t s. specialize (B t s). destruct o as [t0 s0|t0 keep|t0]; [| |exact B].
    - (* a span that is buffered (its trace is, or is new): one more accepted, one more held *)
      assert (Hbuf : (cnt (a_out x) (t, s) +
                      cnt (map (pair t) (spans (aset t0 (s0 :: spans (a_buf x) t0) (a_buf x)) t)) (t, s)
                      <= cnt ((t0, s0) :: a_acc x) (t, s))%nat).
      { rewrite spans_aset. destruct (N.eqb_spec t t0) as [->|_]; cbn [map count_occ]; destruct (key_dec _ _); lia. }
      cbn [Collector.astep]. unfold spans in Hbuf.
      destruct (alookup t0 (a_buf x)); [exact Hbuf|]. destruct (alookup t0 (a_dec x)) as [k|]; [|exact Hbuf].
      (* a late span: one more accepted, at most one more handed over *)
      cbn [a_out a_buf a_acc]. rewrite count_occ_app.
      destruct (k || dry); cbn [count_occ]; destruct (key_dec _ _); lia.
    - rewrite astep_decide. destruct (alookup t0 (a_buf x)); [|exact B].
      cbn [a_out a_buf a_acc]. rewrite spans_aremove, count_occ_app. destruct (N.eqb_spec t t0) as [->|Hne].
      + destruct (keep || dry); cbn [map count_occ]; lia.
      + destruct (keep || dry); rewrite ?(cnt_map_pair_other _ _ _ _ Hne); cbn [count_occ]; lia.
  Qed.

  Lemma arun_bounded ops : forall x, Bounded x -> Bounded (arun x ops).
  Proof. induction ops as [|o r IH]; intros x B; [exact B|]. apply IH, astep_bounded, B. Qed.

  Lemma bounded_out_acc x p : Bounded x -> (cnt (a_out x) p <= cnt (a_acc x) p)%nat.
  Proof. intros B. destruct p as [t s]. specialize (B t s). lia. Qed.
End Abs.
