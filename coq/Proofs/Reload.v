(* Proofs about the reload model: sequential characterisation, and the invariant of the step-wise
   interleaving of any number of reloaders under the reload mutex. *)
From Refinery Require Import Lib.Base Model.Reload.

Lemma applies_readable v cur c :
  applies v cur (Readable c) = true <-> acceptable v c = true /\ chash c <> chash cur.
Proof. unfold applies. rewrite andb_true_iff, negb_true_iff, N.eqb_neq. reflexivity. Qed.

Lemma applies_unchanged v cur c :
  applies v cur (Readable c) = false -> acceptable v c = true -> chash cur = chash c.
Proof. unfold applies. intros H Ha. rewrite Ha in H. apply negb_false_iff, N.eqb_eq in H. congruence. Qed.

Lemma reload_seq_spec v cur src :
  let '(c', a) := reload_seq v cur src in
  (a = true <-> exists c, src = Readable c /\ acceptable v c = true /\ chash c <> chash cur) /\
  (a = true -> src = Readable c') /\ (a = false -> c' = cur).
Proof.
  destruct src as [|c]; cbn [reload_seq].
  - split; [split; [discriminate|intros (c & [=] & _)]|split; [discriminate|reflexivity]].
  - destruct (applies v cur (Readable c)) eqn:E.
    + apply applies_readable in E. split; [split; eauto|split; [reflexivity|discriminate]].
    + split; [split; [discriminate|]|split; [discriminate|reflexivity]].
      intros (c1 & [= <-] & H). apply applies_readable in H. congruence.
Qed.

Lemma upd_length {A} t (x : A) l : length (upd t x l) = length l.
Proof. revert t. induction l as [|y r IH]; intros [|t]; cbn; try reflexivity. rewrite IH. reflexivity. Qed.

Lemma nth_upd_eq {A} t (x d : A) l : (t < length l)%nat -> nth t (upd t x l) d = x.
Proof. revert t. induction l as [|y r IH]; intros [|t] H; cbn in *; try lia; try reflexivity. apply IH. lia. Qed.

Lemma nth_upd_neq {A} t t' (x d : A) l : t <> t' -> nth t' (upd t x l) d = nth t' l d.
Proof.
  revert t t'. induction l as [|y r IH]; intros [|t] [|t'] H; cbn; try reflexivity; try congruence.
  apply IH. congruence.
Qed.

Fixpoint sumf {A} (f : A -> Z) (l : list A) : Z := match l with [] => 0 | x :: r => f x + sumf f r end.

Lemma sumf_upd {A} (f : A -> Z) t x d l :
  (t < length l)%nat -> sumf f (upd t x l) = sumf f l - f (nth t l d) + f x.
Proof.
  revert t. induction l as [|y r IH]; intros [|t] H; cbn in *; try lia. rewrite IH by lia. lia.
Qed.

Lemma sumf_zero {A} (f : A -> Z) l : (forall x, In x l -> f x = 0) -> sumf f l = 0.
Proof.
  induction l as [|y r IH]; intros H; [reflexivity|]. cbn. rewrite (H y (or_introl eq_refl)), IH; [reflexivity|].
  intros x Hx. apply H. right. exact Hx.
Qed.

Fixpoint cntb {A} (f : A -> bool) (l : list A) : Z :=
  match l with [] => 0 | x :: r => (if f x then 1 else 0) + cntb f r end.

Lemma cntb_nonneg {A} (f : A -> bool) l : 0 <= cntb f l.
Proof. induction l as [|x r IH]; cbn; [lia|]. destruct (f x); lia. Qed.

Lemma cntb_notin cb l : ~ In cb l -> cntb (N.eqb cb) l = 0.
Proof.
  induction l as [|x r IH]; intros H; [reflexivity|]. cbn. destruct (N.eqb cb x) eqn:E.
  - apply N.eqb_eq in E. subst. exfalso. apply H. left. reflexivity.
  - rewrite IH; [reflexivity|]. intros Hi. apply H. right. exact Hi.
Qed.

Lemma cntb_nodup cb l : NoDup l -> In cb l -> cntb (N.eqb cb) l = 1.
Proof.
  induction l as [|x r IH]; intros Hnd Hin; [destruct Hin|]. inversion Hnd as [|? ? Hn Hr]; subst. cbn.
  destruct (N.eqb cb x) eqn:E.
  - apply N.eqb_eq in E. subst. rewrite cntb_notin by exact Hn. reflexivity.
  - apply N.eqb_neq in E. destruct Hin as [->|Hin]; [congruence|]. rewrite IH by assumption. reflexivity.
Qed.

Fixpoint distinct_adj (l : list N) : Prop :=
  match l with
  | x :: ((y :: _) as r) => x <> y /\ distinct_adj r
  | _ => True
  end.

Definition noted (cb h : N) (l : list (N * N)) : Z := cntb (fun x => N.eqb cb (fst x) && N.eqb (snd x) h) l.
Definition times_applied (h : N) (l : list content) : Z := cntb (fun c => N.eqb (chash c) h) l.

Definition holds (p : pc) : bool :=
  match p with Locked | Loaded _ | Writing _ _ | Unlocking _ _ => true | _ => false end.

Section Interleaving.
  Variable v : variant.
  Hypothesis Hlock : v_lock v = true.
  Variable cbs : list N.
  Hypothesis Hcbs : NoDup cbs.
  Variable c0 : content.

  (* notifications of change h still owed to listener cb *)
  Definition owe (cb h : N) (p : pc) : Z :=
    match p with
    | Unlocking _ (Some c) => if N.eqb (chash c) h then 1 else 0
    | Notifying c rest => if N.eqb (chash c) h then cntb (N.eqb cb) rest else 0
    | _ => 0
    end.

  Definition pcat (s : sys) (t : nat) : pc := nth t (threads s) Idle.

  Record inv (s : sys) : Prop := {
    i_lock : forall t, (t < length (threads s))%nat -> holds (pcat s t) = true -> lock s = Some t;
    i_cur : cur s = hd c0 (applied s);
    i_acc : Forall (fun c => acceptable v c = true) (applied s);
    i_dist : distinct_adj (map chash (applied s ++ [c0]));
    i_writing : forall t src c, (t < length (threads s))%nat -> pcat s t = Writing src c ->
                  src = Readable c /\ acceptable v c = true /\ chash c <> chash (cur s);
    i_unlocking : forall t c n, (t < length (threads s))%nat -> pcat s t = Unlocking (Readable c) n ->
                  acceptable v c = true -> chash (cur s) = chash c;
    i_notes : forall cb h, In cb cbs ->
                  noted cb h (notes s) + sumf (owe cb h) (threads s) = times_applied h (applied s)
  }.

  (* i_lock, i_writing and i_unlocking for one reloader (inv_intro, inv_thread): the form the proofs below
     work with *)
  Definition thread_ok (lk : option nat) (cu : content) (t : nat) (p : pc) : Prop :=
    (holds p = true -> lk = Some t) /\
    match p with
    | Writing src c => src = Readable c /\ acceptable v c = true /\ chash c <> chash cu
    | Unlocking (Readable c) _ => acceptable v c = true -> chash cu = chash c
    | _ => True
    end.

  Lemma inv_intro s :
    (forall t, (t < length (threads s))%nat -> thread_ok (lock s) (cur s) t (pcat s t)) ->
    cur s = hd c0 (applied s) ->
    Forall (fun c => acceptable v c = true) (applied s) ->
    distinct_adj (map chash (applied s ++ [c0])) ->
    (forall cb h, In cb cbs -> noted cb h (notes s) + sumf (owe cb h) (threads s) = times_applied h (applied s)) ->
    inv s.
  Proof.
    intros Ht Hcur Hacc Hdist Hnotes. constructor; try assumption.
    - intros t Hlt. apply (Ht t Hlt).
    - intros t src c Hlt Ep. destruct (Ht t Hlt) as [_ H]. rewrite Ep in H. exact H.
    - intros t c n Hlt Ep. destruct (Ht t Hlt) as [_ H]. rewrite Ep in H. exact H.
  Qed.

  Lemma inv_thread s t : inv s -> (t < length (threads s))%nat -> thread_ok (lock s) (cur s) t (pcat s t).
  Proof.
    intros Hi Hlt. split; [apply (i_lock s Hi t Hlt)|].
    destruct (pcat s t) as [| | |src|src c|[|c] n|c rest] eqn:Ep; try exact I.
    - apply (i_writing s Hi t src c Hlt Ep).
    - apply (i_unlocking s Hi t c n Hlt Ep).
  Qed.

  Lemma thread_ok_free lk cu t p : holds p = false -> thread_ok lk cu t p.
  Proof. intros H. split; [congruence|]. destruct p; try discriminate; exact I. Qed.

  Lemma inv_init n : inv (sinit n c0).
  Proof.
    apply inv_intro; cbn [sinit threads lock cur applied notes].
    - intros t _. unfold pcat. cbn [sinit threads]. rewrite nth_repeat. apply thread_ok_free. reflexivity.
    - reflexivity.
    - constructor.
    - exact I.
    - intros cb h _. apply sumf_zero. intros x Hx. apply repeat_spec in Hx. subst. reflexivity.
  Qed.

  (* The other reloaders stay in order if lock and configuration stay or none of them has the mutex; what t
     owes changes by what was noted and stored. *)
  Lemma inv_move s t p0 p lk cu ap nt :
    pcat s t = p0 -> inv s -> (t < length (threads s))%nat ->
    thread_ok lk cu t p ->
    (lk = lock s /\ cu = cur s) \/ lock s = None \/ lock s = Some t ->
    cu = hd c0 ap -> Forall (fun c => acceptable v c = true) ap -> distinct_adj (map chash (ap ++ [c0])) ->
    (forall cb h, In cb cbs ->
       noted cb h nt + owe cb h p + times_applied h (applied s) =
       noted cb h (notes s) + owe cb h p0 + times_applied h ap) ->
    inv {| file := file s; cur := cu; lock := lk; threads := upd t p (threads s); applied := ap; notes := nt |}.
  Proof.
    intros <- Hi Hlt Hp Hothers Hcur Hacc Hdist Hnotes.
    apply inv_intro; unfold pcat in *; cbn [threads lock cur applied notes]; try assumption.
    - intros t' Hlt'. rewrite upd_length in Hlt'. destruct (Nat.eq_dec t t') as [<-|Hne].
      + rewrite nth_upd_eq by exact Hlt. exact Hp.
      + rewrite nth_upd_neq by exact Hne. destruct Hothers as [[-> ->]|Hl].
        * apply inv_thread; assumption.
        * apply thread_ok_free. destruct (holds (nth t' (threads s) Idle)) eqn:Hh; [|reflexivity].
          apply (i_lock s Hi t' Hlt') in Hh. destruct Hl; congruence.
    - intros cb h Hin. rewrite (sumf_upd _ t p Idle) by exact Hlt.
      pose proof (i_notes s Hi cb h Hin). specialize (Hnotes cb h Hin). lia.
  Qed.

  (* In the uses below [auto] closes every premise but [thread_ok] of the new state and, where something is
     owed or noted, the account. *)
  Lemma inv_pc s t p0 p lk nt :
    pcat s t = p0 -> inv s -> (t < length (threads s))%nat ->
    thread_ok lk (cur s) t p ->
    lk = lock s \/ lock s = None \/ lock s = Some t ->
    (forall cb h, In cb cbs -> noted cb h nt + owe cb h p = noted cb h (notes s) + owe cb h p0) ->
    inv {| file := file s; cur := cur s; lock := lk; threads := upd t p (threads s); applied := applied s;
           notes := nt |}.
  Proof.
    intros Ep Hi Hlt Hp Hlk Hnotes. apply inv_move with (1 := Ep); try apply Hi; try assumption.
    - destruct Hlk; auto.
    - intros cb h Hin. rewrite (Hnotes cb h Hin). reflexivity.
  Qed.

  Lemma step_inv s t : inv s -> inv (step v cbs s t).
  Proof.
    intros Hi. unfold step. destruct (Nat.ltb t (length (threads s))) eqn:Hlt; [|exact Hi].
    apply Nat.ltb_lt in Hlt. pose proof (inv_thread s t Hi Hlt) as [Hl Hp]. fold (pcat s t).
    destruct (pcat s t) as [| | |src|src c|src n|c rest] eqn:Ep; cbn [holds] in Hl.
    - exact Hi.
    - (* Lock *)
      rewrite Hlock. destruct (lock s) eqn:El; [exact Hi|].
      apply inv_pc with (1 := Ep); auto. split; [reflexivity|exact I].
    - (* read the sources *)
      apply inv_pc with (1 := Ep); auto. split; [exact Hl|exact I].
    - (* validate, compare with the running configuration *)
      destruct src as [|c]; [|destruct (applies v (cur s) (Readable c)) eqn:Ea];
        (apply inv_pc with (1 := Ep); auto; split; [exact Hl|]).
      + exact I.
      + split; [reflexivity|apply applies_readable, Ea].
      + apply applies_unchanged, Ea.
    - (* store: from here on the running configuration is what t read *)
      destruct Hp as (-> & Hacc & Hne).
      apply inv_move with (1 := Ep); auto.
      + split; [exact Hl|reflexivity].
      + constructor; [exact Hacc|apply Hi].
      + rewrite (i_cur s Hi) in Hne. pose proof (i_dist s Hi) as Hd.
        destruct (applied s); cbn [hd app map distinct_adj] in *; split; assumption.
      + intros cb h _. unfold times_applied. cbn [owe cntb]. lia.
    - (* Unlock; each listener is owed one call if something was stored *)
      rewrite Hlock. apply inv_pc with (1 := Ep); auto.
      + apply thread_ok_free. destruct n; reflexivity.
      + intros cb h Hin. destruct n as [c|]; cbn [owe]; [|reflexivity].
        rewrite (cntb_nodup cb cbs Hcbs Hin). reflexivity.
    - (* call the next listener, or finish *)
      destruct rest as [|cb0 r]; (apply inv_pc with (1 := Ep); auto; [apply thread_ok_free; reflexivity|]);
        intros cb h _; unfold noted; cbn [owe cntb fst snd].
      + destruct (N.eqb (chash c) h); reflexivity.
      + destruct (N.eqb cb cb0), (N.eqb (chash c) h); cbn [andb]; lia.
  Qed.

  Lemma sstep_inv s o : inv s -> inv (sstep v cbs s o).
  Proof.
    intros Hi. destruct o as [src|t|t]; cbn [sstep].
    - destruct Hi. constructor; assumption.
    - (* the model reads the state with default Locked, so that a t beyond the list is not Idle and
         the trigger is ignored *)
      destruct (nth t (threads s) Locked) eqn:Ep; try exact Hi.
      destruct (Nat.lt_ge_cases t (length (threads s))) as [Hlt|Hge].
      + rewrite (nth_indep _ Locked Idle Hlt) in Ep.
        apply inv_pc with (1 := Ep); auto. apply thread_ok_free. reflexivity.
      + rewrite nth_overflow in Ep by exact Hge. discriminate.
    - apply step_inv. exact Hi.
  Qed.

  Lemma srun_inv ops : forall s, inv s -> inv (srun v cbs s ops).
  Proof.
    induction ops as [|o r IH]; intros s Hi; [exact Hi|]. cbn [srun fold_left]. apply IH. apply sstep_inv. exact Hi.
  Qed.

  Lemma quiescent_owes_nothing s cb h : quiescent s = true -> sumf (owe cb h) (threads s) = 0.
  Proof.
    unfold quiescent. intros H. apply sumf_zero. intros p Hp. rewrite forallb_forall in H. specialize (H p Hp).
    destruct p; try discriminate. reflexivity.
  Qed.

  Theorem reachable_inv n ops : inv (srun v cbs (sinit n c0) ops).
  Proof. apply srun_inv, inv_init. Qed.
End Interleaving.

(* The flags that Gen/GenC27.v re-reads from config/file_config.go all compute to true.  This is
   where the Go source enters the theorems about gen_variant: if a reload of the source turns one of
   the flags off, it is this equation that fails. *)
Lemma gen_variant_fixed : gen_variant = fixed.
Proof. vm_compute. reflexivity. Qed.

Lemma acceptable_fixed c : acceptable fixed c = cacc c.
Proof. unfold acceptable, fixed. cbn. apply andb_true_r. Qed.

Lemma c27_interleaved (n : nat) (c0 : content) (cbs : list N) (ops : list sop) :
  NoDup cbs ->
  let s := srun gen_variant cbs (sinit n c0) ops in
  Forall (fun c => cacc c = true) (applied s) /\
  cur s = hd c0 (applied s) /\
  distinct_adj (map chash (applied s ++ [c0])) /\
  (forall t c k, nth t (threads s) Idle = Unlocking (Readable c) k -> cacc c = true -> chash (cur s) = chash c) /\
  (quiescent s = true -> forall cb h, In cb cbs -> noted cb h (notes s) = times_applied h (applied s)).
Proof.
  intros Hnd. rewrite gen_variant_fixed. intros s.
  pose proof (reachable_inv fixed eq_refl cbs Hnd c0 n ops : inv fixed cbs c0 s) as Hi.
  split; [|split; [|split; [|split]]].
  - refine (Forall_impl _ _ (i_acc _ _ _ s Hi)). intros c Ha. rewrite acceptable_fixed in Ha. exact Ha.
  - exact (i_cur _ _ _ s Hi).
  - exact (i_dist _ _ _ s Hi).
  - intros t c k Hp Ha. rewrite <- acceptable_fixed in Ha.
    destruct (Nat.lt_ge_cases t (length (threads s))) as [Hlt|Hge].
    + exact (i_unlocking _ _ _ s Hi t c k Hlt Hp Ha).
    + rewrite nth_overflow in Hp by exact Hge. discriminate.
  - intros Hq cb h Hin. pose proof (i_notes _ _ _ s Hi cb h Hin) as H.
    rewrite (quiescent_owes_nothing s cb h Hq) in H. lia.
Qed.
