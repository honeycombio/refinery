(* With the snapshot taken under the mutex the store follows the sampler's counter for every
   interleaving. *)
From Refinery Require Import Lib.Base Model.Recorder.

Record rec_inv (s0 : Z) (c : rconf) : Prop := {
  ri_store : store c = last c - s0;
  ri_last : last c <= latest c;
  ri_latest : latest c <= src c;
  ri_deltas : Forall (fun d => 0 <= d) (deltas c);
  (* what the mutex buys: a snapshot waiting to be applied is the latest one taken, and when none is
     waiting the latest one has been applied *)
  ri_snapshot : match active c with
                | Some (_, Some v) => v = latest c
                | _ => last c = latest c
                end }.

Lemma rec_inv_init s0 : rec_inv s0 (rinit s0).
Proof. constructor; cbn; try lia. constructor. Qed.

Lemma rec_inv_step s0 c e : rec_inv s0 c -> rec_inv s0 (rstep false c e).
Proof.
  intros [Hs H1 H2 Hd Ha]. destruct e as [i|d]; cbn [rstep].
  - destruct (active c) as [[j [v|]]|] eqn:Ea.
    + destruct (N.eqb i j); [|constructor; rewrite ?Ea; assumption].
      (* apply and unlock: the snapshot applied is the latest one, so the delta is latest - last >= 0
         and last catches up with latest *)
      subst v. constructor; cbn; [lia|lia|exact H2| |reflexivity]. constructor; [lia|exact Hd].
    + destruct (N.eqb i j); [|constructor; rewrite ?Ea; assumption].
      (* snapshot, with the mutex held *)
      constructor; cbn; [exact Hs|lia|lia|exact Hd|reflexivity].
    + (* lock *)
      constructor; cbn; assumption.
  - (* the sampler's counter grows *)
    constructor; cbn; try assumption. lia.
Qed.

Lemma rec_inv_run s0 evs : forall c, rec_inv s0 c -> rec_inv s0 (rrun false c evs).
Proof.
  unfold rrun. induction evs as [|e r IH]; intros c H; cbn [fold_left]; [exact H|].
  apply IH, rec_inv_step, H.
Qed.

Theorem rec_inv_reachable s0 evs : rec_inv s0 (rrun false (rinit s0) evs).
Proof. apply rec_inv_run, rec_inv_init. Qed.

(* for every interleaving of any number of goroutines and any growth of the sampler's counter: every
   Count() argument ([deltas]) is >= 0, and the store never runs ahead of the sampler *)
Theorem recorder_follows_source s0 evs :
  let c := rrun false (rinit s0) evs in
  store c = last c - s0 /\ Forall (fun d => 0 <= d) (deltas c) /\ last c <= latest c /\ latest c <= src c.
Proof.
  cbn zeta. destruct (rec_inv_reachable s0 evs) as [Hs H1 H2 Hd _]. tauto.
Qed.

Theorem recorder_store_is_latest_snapshot s0 evs :
  let c := rrun false (rinit s0) evs in
  quiescent c = true -> store c = latest c - s0.
Proof.
  cbn zeta. destruct (rec_inv_reachable s0 evs) as [Hs _ _ _ Ha].
  unfold quiescent. destruct (active (rrun false (rinit s0) evs)); [discriminate|]. intros _. lia.
Qed.
