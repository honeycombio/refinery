(* C17: what WhichShard computes. With the strict comparison of the source, the scan returns a
   partition with the greatest trace hash, or the initial index 0 when every trace hash is 0. (Among equal
   maxima the scan keeps the first in list order; the statements below do not record that.) *)
From Refinery Require Import Lib.Base Model.Shard.

Section Max.
  Variable H : string -> N -> N.
  Variable tid : string.
  Definition hval (p : part) : N := H tid (uhash p).

  Lemma scan_strict_spec : forall hs b mx,
    (scan H true tid hs b mx = b /\ Forall (fun p => (hval p <= mx)%N) hs) \/
    (exists p, In p hs /\ scan H true tid hs b mx = pix p /\ (mx < hval p)%N /\
               Forall (fun q => (hval q <= hval p)%N) hs).
  Proof.
    induction hs as [|p r IH]; intros b mx; cbn [scan]; [left; split; constructor|].
    unfold better. fold (hval p). destruct (N.ltb_spec mx (hval p)) as [E|E].
    - destruct (IH (pix p) (hval p)) as [[Eq F]|[q [Hq [Eq [Lt F]]]]]; right.
      + exists p. repeat split; [left; reflexivity|exact Eq|exact E|constructor; [lia|exact F]].
      + exists q. repeat split; [right; exact Hq|exact Eq|lia|constructor; [lia|exact F]].
    - destruct (IH b mx) as [[Eq F]|[q [Hq [Eq [Lt F]]]]].
      + left. split; [exact Eq|constructor; [exact E|exact F]].
      + right. exists q. repeat split; [right; exact Hq|exact Eq|exact Lt|constructor; [lia|exact F]].
  Qed.

  (* WhichShard: the owner is peers[0] when all trace hashes are 0, else the address of a partition whose trace
     hash is positive and maximal over ALL partitions *)
  Lemma owner_is_argmax lp hs :
    (owner H true lp hs tid = nth 0 lp EmptyString /\ Forall (fun p => hval p = 0%N) hs) \/
    (exists p, In p hs /\ owner H true lp hs tid = nth (pix p) lp EmptyString /\ (0 < hval p)%N /\
               Forall (fun q => (hval q <= hval p)%N) hs).
  Proof.
    unfold owner. destruct (scan_strict_spec hs 0%nat 0%N) as [[Eq F]|[p [Hp [Eq [Lt F]]]]].
    - left. rewrite Eq. split; [reflexivity|]. eapply Forall_impl; [|exact F]. intros q Hq. cbn beta in Hq. lia.
    - right. exists p. rewrite Eq. repeat split; assumption.
  Qed.
End Max.
