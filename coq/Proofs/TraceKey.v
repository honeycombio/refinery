(* Proofs about Model/TraceKey.v (C11).  Below the cap a field contributes to the key only through
   the sorted list of its distinct rendered values ([canon]); since no value contains a delimiter,
   the key can be read back block by block, which gives separation. *)
From Refinery Require Import Lib.Base Model.TraceKey.
From Coq Require Import ZifyN ZifyNat ZifyBool Permutation.

Lemma scan_u_In xs : forall seen y, In y (scan_u xs seen) <-> In y seen \/ In y xs.
Proof.
  induction xs as [|x r IH]; intros seen y; cbn [scan_u In]; [tauto|].
  destruct (mem_str x seen) eqn:M; rewrite IH; cbn [In]; [|tauto].
  apply mem_str_In in M. split; [tauto|]. intros [H|[<-|H]]; tauto.
Qed.

Lemma scan_u_NoDup xs : forall seen, NoDup seen -> NoDup (scan_u xs seen).
Proof.
  induction xs as [|x r IH]; intros seen H; cbn [scan_u]; [exact H|].
  destruct (mem_str x seen) eqn:M; [apply IH; exact H|].
  apply IH. constructor; [|exact H]. intros Hin. apply mem_str_In in Hin. congruence.
Qed.

Lemma scan_u_len xs : forall seen, (length seen <= length (scan_u xs seen))%nat.
Proof.
  induction xs as [|x r IH]; intros seen; cbn [scan_u]; [lia|].
  destruct (mem_str x seen); [apply IH|]. specialize (IH (x :: seen)). cbn [length] in IH. lia.
Qed.

(* the running count is [base] plus the number of stored values *)
Lemma scan_nocap xs : forall seen base,
  (base + N.of_nat (length (scan_u xs seen)) < MAXK)%N ->
  scan xs seen (base + N.of_nat (length seen)) =
    (scan_u xs seen, (base + N.of_nat (length (scan_u xs seen)))%N, false).
Proof.
  induction xs as [|x r IH]; intros seen base H; cbn [scan scan_u] in *; [reflexivity|].
  pose proof (scan_u_len r seen). pose proof (scan_u_len r (x :: seen)) as L. cbn [length] in L.
  (* the count never passes its final value, so the cap tests fail *)
  destruct (mem_str x seen); rewrite !(proj2 (N.leb_gt _ _)) by lia.
  - apply IH, H.
  - rewrite <- N.add_assoc, N.add_1_r, <- Nat2N.inj_succ. apply (IH (x :: seen)), H.
Qed.

(* [ndistinct (vals f t)] is the length of this list *)
Definition dvals (f : str) (t : trace) : list str := scan_u (vals f t) [].

Lemma dvals_In f t x : In x (dvals f t) <-> In x (vals f t).
Proof. unfold dvals. rewrite scan_u_In. cbn [In]. tauto. Qed.

Lemma dvals_NoDup f t : NoDup (dvals f t).
Proof. apply scan_u_NoDup. constructor. Qed.

Lemma total_distinct_cons f r t :
  total_distinct (f :: r) t = (N.of_nat (length (dvals f t)) + total_distinct r t)%N.
Proof. reflexivity. Qed.

Lemma scan_field_nocap f t cnt :
  (cnt + N.of_nat (length (dvals f t)) < MAXK)%N ->
  scan (vals f t) [] cnt = (dvals f t, (cnt + N.of_nat (length (dvals f t)))%N, false).
Proof. intros H. pose proof (scan_nocap (vals f t) [] cnt H) as S. cbn [length] in S. rewrite N.add_0_r in S. exact S. Qed.

Lemma collect_nocap t fs : forall cnt,
  (cnt + total_distinct fs t < MAXK)%N -> collect fs t cnt = map (fun f => dvals f t) fs.
Proof.
  induction fs as [|f r IH]; intros cnt H; cbn [collect map]; [reflexivity|].
  rewrite total_distinct_cons in H. rewrite scan_field_nocap by lia. f_equal. apply IH. lia.
Qed.

Lemma build_gen_nocap ip fields uselen t :
  (total_distinct (fst (prepare fields)) t < MAXK)%N ->
  build_gen ip fields uselen t =
  let nf := fst (prepare fields) in let rf := snd (prepare fields) in
  let blocks := map (fun f => emit_field ip (dvals f t)) nf in
  (concat (map fst blocks) ++ fst (root_part rf t) ++ fst (len_part uselen t),
   (fold_right N.add 0%N (map snd blocks) + snd (root_part rf t) + snd (len_part uselen t))%N).
Proof.
  intros H. unfold build_gen. destruct (prepare fields) as [nf rf]. cbn [fst snd] in *.
  rewrite collect_nocap by lia.
  rewrite (map_map (fun f => dvals f t) (emit_field ip)). reflexivity.
Qed.

Definition same_sets (fs : list str) (t t' : trace) : Prop :=
  forall f, In f fs -> forall x, In x (vals f t) <-> In x (vals f t').

Lemma dvals_perm f t t' :
  (forall x, In x (vals f t) <-> In x (vals f t')) -> Permutation (dvals f t) (dvals f t').
Proof.
  intros H. apply NoDup_Permutation; try apply dvals_NoDup. intros x. rewrite !dvals_In. apply H.
Qed.

Lemma total_distinct_ext fs t t' : same_sets fs t t' -> total_distinct fs t = total_distinct fs t'.
Proof.
  induction fs as [|f r IH]; intros H; [reflexivity|]. rewrite !total_distinct_cons.
  rewrite (Permutation_length (dvals_perm f t t' (H f (or_introl eq_refl)))), IH; [reflexivity|].
  intros g Hg. apply H. right. exact Hg.
Qed.

Lemma emit_field_perm ip l l' : Permutation l l' -> emit_field ip l = emit_field ip l'.
Proof. intros P. unfold emit_field. rewrite (ssort_perm_eq l l' P). reflexivity. Qed.

Lemma root_part_view rfs t t' : root_view rfs t = root_view rfs t' -> root_part rfs t = root_part rfs t'.
Proof.
  unfold root_view, root_part. destruct (t_root t) as [rs|], (t_root t') as [rs'|]; try discriminate; [|reflexivity].
  intros [= H]. induction rfs as [|f r IH]; cbn [fold_right map] in *; [reflexivity|].
  injection H as H1 H2. rewrite (IH H2).
  destruct (sp_get f rs) as [v|], (sp_get f rs') as [v'|]; cbn [option_map] in H1; try discriminate; [|reflexivity].
  injection H1 as ->. reflexivity.
Qed.

Theorem build_determined ip fields uselen t t' :
  let nf := fst (prepare fields) in let rf := snd (prepare fields) in
  (total_distinct nf t < MAXK)%N ->
  same_sets nf t t' ->
  root_view rf t = root_view rf t' ->
  (uselen = true -> length (t_spans t) = length (t_spans t')) ->
  build_gen ip fields uselen t = build_gen ip fields uselen t'.
Proof.
  intros nf rf Hcap Hsets Hroot Hlen.
  pose proof (total_distinct_ext nf t t' Hsets) as Hd.
  rewrite !build_gen_nocap by (fold nf; lia). fold nf rf. cbv zeta.
  rewrite (root_part_view rf t t' Hroot).
  replace (len_part uselen t') with (len_part uselen t)
    by (unfold len_part; destruct uselen; [rewrite Hlen|]; reflexivity).
  rewrite (map_ext_in _ (fun f => emit_field ip (dvals f t')) nf); [reflexivity|].
  intros f Hf. apply emit_field_perm, dvals_perm, Hsets, Hf.
Qed.

Lemma vals_spans f t t' :
  (forall s, In s (t_spans t) <-> In s (t_spans t')) -> forall x, In x (vals f t) <-> In x (vals f t').
Proof.
  intros S x. unfold vals. rewrite !in_flat_map.
  split; intros [s [Hs Hx]]; exists s; (split; [apply S; exact Hs|exact Hx]).
Qed.

Theorem build_same_spans ip fields uselen t t' :
  (total_distinct (fst (prepare fields)) t < MAXK)%N ->
  (forall s, In s (t_spans t) <-> In s (t_spans t')) -> t_root t = t_root t' ->
  (uselen = true -> length (t_spans t) = length (t_spans t')) ->
  build_gen ip fields uselen t = build_gen ip fields uselen t'.
Proof.
  intros Hcap S R L. apply build_determined; [exact Hcap| | |exact L].
  - intros f _. apply vals_spans, S.
  - unfold root_view. rewrite R. reflexivity.
Qed.

Lemma dedup_prev_nodup_some l : forall p, NoDup (p :: l) -> dedup_prev (Some p) l = l.
Proof.
  induction l as [|x r IH]; intros p H; cbn [dedup_prev]; [reflexivity|].
  inversion H as [|? ? Hp Hr]; subst.
  destruct (str_eqb x p) eqn:E; [apply str_eqb_eq in E; subst; exfalso; apply Hp; left; reflexivity|].
  cbn [app]. f_equal. apply IH. exact Hr.
Qed.

Lemma dedup_prev_nodup_none l : NoDup l -> dedup_prev None l = l.
Proof.
  destruct l as [|x r]; intros H; cbn [dedup_prev]; [reflexivity|].
  cbn [app]. f_equal. apply dedup_prev_nodup_some. exact H.
Qed.

(* [delim_free] is the same test as a bool, for the monitor *)
Definition dfree (s : str) : Prop := ~ In BUL s /\ ~ In COMMA s.

Lemma delim_free_dfree s : delim_free s = true <-> dfree s.
Proof.
  unfold delim_free, dfree. rewrite forallb_forall. split.
  - intros H. split; intros Hin; specialize (H _ Hin); rewrite N.eqb_refl in H;
      [discriminate|rewrite andb_false_r in H; discriminate].
  - intros [H1 H2] c Hc. apply andb_true_iff. split; apply negb_true_iff, N.eqb_neq; intros ->; auto.
Qed.

Lemma split_unique {A} (d : A) v : forall v' X X',
  ~ In d v -> ~ In d v' -> v ++ d :: X = v' ++ d :: X' -> v = v' /\ X = X'.
Proof.
  induction v as [|c v IH]; intros [|c' v'] X X' H1 H2 E; cbn [app In] in *.
  - injection E as ->. auto.
  - injection E as <- _. tauto.
  - injection E as -> _. tauto.
  - injection E as <- E. apply IH in E; [|tauto..]. destruct E as [-> ->]. auto.
Qed.

(* ','-terminated items free of ',' can be read back one by one, whatever follows *)
Lemma comma_parse {A} (g g' : A -> str) (fs : list A) X X' :
  Forall (fun f => ~ In COMMA (g f) /\ ~ In COMMA (g' f)) fs ->
  flat_map (fun f => g f ++ [COMMA]) fs ++ X = flat_map (fun f => g' f ++ [COMMA]) fs ++ X' ->
  Forall (fun f => g f = g' f) fs /\ X = X'.
Proof.
  induction 1 as [|a r [C C'] _ IH]; cbn [flat_map]; intros E; [auto|].
  rewrite <- !app_assoc in E. cbn [app] in E.
  apply split_unique in E; [|assumption..]. destruct E as [E1 E]. destruct (IH E) as [E2 E3]. auto.
Qed.

Lemma enc_cons v l : enc (v :: l) = v ++ BUL :: enc l.
Proof. unfold enc. cbn [flat_map]. rewrite <- app_assoc. reflexivity. Qed.

Lemma enc_comma_free l : Forall dfree l -> ~ In COMMA (enc l).
Proof.
  intros F Hin. apply in_flat_map in Hin. destruct Hin as [v [Hv Hin]].
  rewrite Forall_forall in F. destruct (F v Hv) as [_ Hc].
  apply in_app_or in Hin. destruct Hin as [Hin|[E|[]]]; [exact (Hc Hin)|discriminate E].
Qed.

Lemma enc_inj l : forall l', Forall dfree l -> Forall dfree l' -> enc l = enc l' -> l = l'.
Proof.
  induction l as [|v l IH]; intros [|v' l'] F F' E; [reflexivity| | |].
  - rewrite enc_cons in E. destruct v'; discriminate E.
  - rewrite enc_cons in E. destruct v; discriminate E.
  - rewrite !enc_cons in E.
    inversion F as [|? ? [Hb _] Fr]; inversion F' as [|? ? [Hb' _] Fr']; subst.
    destruct (split_unique BUL v v' _ _ Hb Hb' E) as [-> E2]. f_equal. exact (IH l' Fr Fr' E2).
Qed.

Definition canon (f : str) (t : trace) : list str := ssort (dvals f t).

Lemma canon_In f t x : In x (canon f t) <-> In x (vals f t).
Proof. unfold canon. rewrite ssort_In. apply dvals_In. Qed.

Lemma canon_NoDup f t : NoDup (canon f t).
Proof. eapply Permutation_NoDup; [apply Permutation_sym, ssort_perm|apply dvals_NoDup]. Qed.

Definition all_present (fs : list str) (t : trace) : Prop := forall f, In f fs -> vals f t <> [].
Definition all_dfree (fs : list str) (t : trace) : Prop :=
  forall f, In f fs -> forall x, In x (vals f t) -> dfree x.

Lemma canon_dfree fs t f : all_dfree fs t -> In f fs -> Forall dfree (canon f t).
Proof. intros D Hf. apply Forall_forall. intros x Hx. apply (D f Hf), canon_In, Hx. Qed.

(* with the first value always written, a field that occurs contributes "v1•v2•…vk•," *)
Lemma emit_block f t : vals f t <> [] -> fst (emit_field None (dvals f t)) = enc (canon f t) ++ [COMMA].
Proof.
  intros H. unfold emit_field. fold (canon f t). destruct (canon f t) as [|w ws] eqn:C.
  - destruct (vals f t) as [|x r] eqn:V; [congruence|].
    assert (In x (canon f t)) as Hin by (apply canon_In; rewrite V; left; reflexivity).
    rewrite C in Hin. destruct Hin.
  - cbv zeta. cbn [fst]. rewrite dedup_prev_nodup_none; [reflexivity|]. rewrite <- C. apply canon_NoDup.
Qed.

Lemma key_text fields uselen t :
  let nf := fst (prepare fields) in let rf := snd (prepare fields) in
  (total_distinct nf t < MAXK)%N -> all_present nf t ->
  fst (build fields uselen t) =
  flat_map (fun f => enc (canon f t) ++ [COMMA]) nf ++ fst (root_part rf t) ++ fst (len_part uselen t).
Proof.
  intros nf rf C P. unfold build, init_prev. rewrite build_gen_nocap by exact C.
  fold nf rf. cbv zeta. cbn [fst]. f_equal. rewrite map_map, flat_map_concat_map. f_equal.
  apply map_ext_in. intros f Hf. apply emit_block, P, Hf.
Qed.

Lemma blocks_parse fs t t' X X' :
  all_dfree fs t -> all_dfree fs t' ->
  flat_map (fun f => enc (canon f t) ++ [COMMA]) fs ++ X =
  flat_map (fun f => enc (canon f t') ++ [COMMA]) fs ++ X' ->
  same_sets fs t t' /\ X = X'.
Proof.
  intros D D' E. apply comma_parse in E.
  2:{ apply Forall_forall. intros f Hf. split; eapply enc_comma_free, canon_dfree; eassumption. }
  destruct E as [E EX]. split; [|exact EX]. intros f Hf x. rewrite Forall_forall in E.
  rewrite <- !canon_In, (enc_inj _ _ (canon_dfree _ _ _ D Hf) (canon_dfree _ _ _ D' Hf) (E f Hf)). tauto.
Qed.

(* Separation: equal keys force equal value sets for every non-root field *)
Theorem build_separates fields uselen uselen' t t' :
  let nf := fst (prepare fields) in
  (total_distinct nf t < MAXK)%N -> (total_distinct nf t' < MAXK)%N ->
  all_present nf t -> all_present nf t' -> all_dfree nf t -> all_dfree nf t' ->
  fst (build fields uselen t) = fst (build fields uselen' t') ->
  same_sets nf t t'.
Proof.
  intros nf C C' P P' D D' E. rewrite !key_text in E by assumption.
  exact (proj1 (blocks_parse _ _ _ _ _ D D' E)).
Qed.

Definition root_ok (rfs : list str) (rs : span) : Prop :=
  forall f, In f rfs -> exists v, sp_get f rs = Some v /\ ~ In COMMA (render_root v).

Definition root_val (rs : span) (f : str) : str :=
  match sp_get f rs with Some v => render_root v | None => [] end.

Lemma root_val_ok rfs rs f :
  root_ok rfs rs -> In f rfs ->
  ~ In COMMA (root_val rs f) /\ option_map render_root (sp_get f rs) = Some (root_val rs f).
Proof. intros K Hf. unfold root_val. destruct (K f Hf) as [v [-> Hc]]. split; [exact Hc|reflexivity]. Qed.

Lemma root_text rfs t rs :
  t_root t = Some rs -> root_ok rfs rs ->
  fst (root_part rfs t) = flat_map (fun f => root_val rs f ++ [COMMA]) rfs.
Proof.
  intros R K. unfold root_part. rewrite R.
  induction rfs as [|f r IH]; cbn [fold_right flat_map]; [reflexivity|].
  unfold root_val at 1. destruct (K f (or_introl eq_refl)) as [v [-> _]]. cbn [fst].
  rewrite <- app_assoc. do 2 f_equal. apply IH. intros g Hg. apply K. right. exact Hg.
Qed.

(* equal keys force equal root values as well, whatever UseTraceLength is on each side *)
Theorem build_separates_root fields uselen uselen' t t' rs rs' :
  let nf := fst (prepare fields) in let rf := snd (prepare fields) in
  (total_distinct nf t < MAXK)%N -> (total_distinct nf t' < MAXK)%N ->
  all_present nf t -> all_present nf t' -> all_dfree nf t -> all_dfree nf t' ->
  t_root t = Some rs -> t_root t' = Some rs' -> root_ok rf rs -> root_ok rf rs' ->
  fst (build fields uselen t) = fst (build fields uselen' t') ->
  forall f, In f rf -> option_map render_root (sp_get f rs) = option_map render_root (sp_get f rs').
Proof.
  intros nf rf C C' P P' D D' R R' K K' E. rewrite !key_text in E by assumption.
  apply blocks_parse in E; [|assumption..]. destruct E as [_ E]. fold rf in E.
  rewrite (root_text rf t rs R K), (root_text rf t' rs' R' K') in E.
  apply comma_parse in E.
  2:{ apply Forall_forall. intros f Hf. split; [apply (root_val_ok _ _ _ K Hf)|apply (root_val_ok _ _ _ K' Hf)]. }
  destruct E as [E _]. rewrite Forall_forall in E. intros f Hf.
  rewrite (proj2 (root_val_ok _ _ _ K Hf)), (proj2 (root_val_ok _ _ _ K' Hf)), (E f Hf). reflexivity.
Qed.

(* The traces of C11_legacy_prevstr_refuted (Props/C11.v), with value sets {"", "a"} and {"a"} for
   field f: when de-duplication starts from prevStr = "" ([build_gen (Some [])]) the empty value is
   not written and the two keys are equal; under [build] they differ. *)
Definition legacy_t1 : trace := {| t_spans := [[(u "f", VStr [])]; [(u "f", VStr (u "a"))]]; t_root := None |}.
Definition legacy_t2 : trace := {| t_spans := [[(u "f", VStr (u "a"))]]; t_root := None |}.

(* rand.Intn(rate) == 0: the draw that keeps is 0 *)
Lemma keep_one_in_rate d :
  forall draw, 0 <= draw < rate_floor d -> (keep_of draw = true <-> draw = 0).
Proof. intros draw _. unfold keep_of. apply Z.eqb_eq. Qed.
