(* Proofs about Model/Determ.v (C10).  Both samplers compare the hash with the quotient MAX / rate;
   [spec_keep] says the same without the division, and every property is proved of it once. *)
From Refinery Require Import Lib.Base Model.Determ.
From Coq Require Import ZifyN ZifyBool.

(* the numerator is the largest hash value: hashes are DET_HASH_BYTES bytes wide *)
Lemma det_max_is_top : DET_MAX = det_hash_range - 1.
Proof. reflexivity. Qed.
Lemma stress_max_is_top : STRESS_MAX = stress_hash_range - 1.
Proof. reflexivity. Qed.

Lemma thr_iff MAX r h : 0 < r -> (h <=? MAX / r) = (h * r <=? MAX).
Proof.
  intros Hr. apply eq_true_iff_eq. rewrite !Z.leb_le. split; intros H.
  - pose proof (Z.mul_div_le MAX r Hr) as H1.
    assert (h * r <= MAX / r * r) as H2 by (apply Z.mul_le_mono_nonneg_r; lia). lia.
  - apply Z.div_le_lower_bound; [exact Hr|]. lia.
Qed.

(* GetSampleRate with the quotient as its bound.  Both samplers call [gen_get] with constants
   (DET_ALWAYS and DET_LE, STRESS_ALWAYS and STRESS_LE) that are 1 and true by conversion. *)
Lemma gen_get_spec MAX rate h :
  0 < rate -> gen_get 1 true rate (MAX / rate) h = (if rate <=? 1 then 1 else rate, spec_keep MAX rate h).
Proof.
  intros Hr. unfold gen_get, spec_keep, thr_cmp. destruct (rate <=? 1); [reflexivity|].
  cbn [orb]. rewrite thr_iff by exact Hr. reflexivity.
Qed.

Lemma spec_nested MAX m n h :
  0 <= h -> m <= n -> spec_keep MAX n h = true -> spec_keep MAX m h = true.
Proof.
  unfold spec_keep. rewrite !orb_true_iff, !Z.leb_le. intros Hh Hmn [H|H]; [left; lia|right; nia].
Qed.

Lemma spec_keep_bound MAX rate h :
  1 <= rate -> 0 <= h <= MAX -> spec_keep MAX rate h = (h <=? MAX / rate).
Proof.
  intros Hr Hh. rewrite thr_iff by lia. unfold spec_keep.
  destruct (Z.leb_spec rate 1); [|reflexivity]. symmetry. apply Z.leb_le. nia.
Qed.

Lemma countN_succ P n :
  countN P (N.succ n) = if P (Z.of_N n) then countN P n + 1 else countN P n.
Proof. unfold countN. rewrite N.peano_rect_succ. reflexivity. Qed.

Lemma countN_ext P Q n :
  (forall k, 0 <= k < Z.of_N n -> P k = Q k) -> countN P n = countN Q n.
Proof.
  induction n as [|n IH] using N.peano_ind; intros H; [reflexivity|].
  rewrite !countN_succ. rewrite (H (Z.of_N n)) by lia.
  rewrite IH; [reflexivity|]. intros k Hk. apply H. lia.
Qed.

Lemma countN_le b n : -1 <= b -> countN (fun h => h <=? b) n = Z.min (Z.of_N n) (b + 1).
Proof.
  intros Hb. induction n as [|n IH] using N.peano_ind; [cbn; lia|].
  rewrite countN_succ, IH.
  destruct (Z.of_N n <=? b) eqn:E; [apply Z.leb_le in E|apply Z.leb_gt in E]; lia.
Qed.

Theorem spec_fraction keep MAX rate :
  0 <= MAX -> 1 <= rate -> (forall h, 0 <= h <= MAX -> keep h = spec_keep MAX rate h) ->
  let kept := countN keep (Z.to_N (MAX + 1)) in
  kept = MAX / rate + 1 /\ MAX + 1 <= rate * kept <= MAX + 1 + rate - 1.
Proof.
  intros HM Hr Hk kept. subst kept.
  assert (0 <= MAX / rate <= MAX) as Hq
    by (split; [apply Z.div_pos|apply Z.div_le_upper_bound]; nia).
  rewrite (countN_ext keep (fun h => h <=? MAX / rate)).
  2:{ intros h Hh. rewrite Hk by lia. apply spec_keep_bound; lia. }
  rewrite countN_le, Z2N.id, Z.min_r by lia. split; [reflexivity|].
  pose proof (Z.div_mod MAX rate ltac:(lia)). pose proof (Z.mod_pos_bound MAX rate ltac:(lia)). nia.
Qed.

(* Start on a positive Go int: the division happens only for 1 < rate <= 2^32-1, where uint32(rate)
   is rate itself *)
Lemma det_bound_pos rate :
  1 <= rate < 9223372036854775808 ->
  det_bound DET_MAX DET_BITS rate = Some (if rate <=? 4294967295 then 4294967295 / rate else 0).
Proof.
  intros Hr. unfold det_bound, gen_bound, conv_u.
  change DET_MAX with 4294967295. change (2 ^ DET_BITS) with 4294967296.
  rewrite Z.mod_small by lia.
  destruct (Z.ltb_spec 4294967295 rate), (Z.leb_spec rate 4294967295); try lia; [reflexivity|].
  destruct (Z.ltb_spec 1 rate).
  - rewrite Z.mod_small by lia. destruct (Z.eqb_spec rate 0); [lia|reflexivity].
  - replace rate with 1 by lia. reflexivity.
Qed.

Lemma det_sample_pos rate h :
  1 <= rate < 9223372036854775808 ->
  det_sample rate h =
  Some (gen_get 1 true rate (if rate <=? 4294967295 then 4294967295 / rate else 0) h).
Proof. intros Hr. unfold det_sample, det_start. rewrite det_bound_pos by exact Hr. reflexivity. Qed.

Lemma det_sample_in_range rate h :
  1 <= rate < 4294967296 ->
  det_sample rate h = Some (if rate <=? 1 then 1 else rate, spec_keep DET_MAX rate h).
Proof.
  intros Hr. rewrite det_sample_pos by lia. destruct (Z.leb_spec rate 4294967295); [|lia].
  f_equal. apply (gen_get_spec DET_MAX). lia.
Qed.

Lemma det_keep_in_range rate h :
  1 <= rate < 4294967296 -> det_keep rate h = spec_keep DET_MAX rate h.
Proof. intros Hr. unfold det_keep. rewrite det_sample_in_range by exact Hr. reflexivity. Qed.

Lemma det_total_in_range rate h : 1 <= rate < 4294967296 -> det_sample rate h <> None.
Proof. intros Hr. rewrite det_sample_in_range by exact Hr. discriminate. Qed.

Lemma det_one_keeps h : det_sample 1 h = Some (1, true).
Proof. rewrite det_sample_in_range by lia. reflexivity. Qed.

Lemma det_nested m n h :
  1 <= m -> m <= n -> n < 4294967296 -> 0 <= h ->
  det_keep n h = true -> det_keep m h = true.
Proof.
  intros Hm Hmn Hn Hh. rewrite !det_keep_in_range by lia. apply spec_nested; assumption.
Qed.

Lemma det_instances_agree rate i1 i2 h :
  det_start rate = Some i1 -> det_start rate = Some i2 -> det_get i1 h = det_get i2 h.
Proof. intros H1 H2. rewrite H1 in H2. injection H2 as <-. reflexivity. Qed.

Lemma det_fraction rate :
  1 <= rate < 4294967296 ->
  let kept := countN (det_keep rate) (Z.to_N det_hash_range) in
  kept = DET_MAX / rate + 1 /\
  det_hash_range <= rate * kept <= det_hash_range + rate - 1.
Proof.
  intros Hr. apply (spec_fraction (det_keep rate) DET_MAX); [discriminate|lia|].
  intros h _. apply det_keep_in_range, Hr.
Qed.

Lemma stress_sample_spec cfg h :
  0 <= cfg < 18446744073709551616 ->
  stress_sample cfg h = (if cfg <=? 1 then 1 else cfg, spec_keep STRESS_MAX cfg h).
Proof.
  intros Hc. unfold stress_sample, stress_update, stress_get. cbn [s_rate s_bound].
  destruct (Z.eqb_spec cfg 0) as [->|H0]; [reflexivity|]. apply (gen_get_spec STRESS_MAX). lia.
Qed.

Lemma stress_keep_spec cfg h :
  0 <= cfg < 18446744073709551616 -> stress_keep cfg h = spec_keep STRESS_MAX cfg h.
Proof. intros Hc. unfold stress_keep. rewrite stress_sample_spec by exact Hc. reflexivity. Qed.

Lemma stress_nested m n h :
  0 <= m -> m <= n -> n < 18446744073709551616 -> 0 <= h ->
  stress_keep n h = true -> stress_keep m h = true.
Proof.
  intros Hm Hmn Hn Hh. rewrite !stress_keep_spec by lia. apply spec_nested; assumption.
Qed.

Lemma stress_fraction cfg :
  1 <= cfg < 18446744073709551616 ->
  let kept := countN (stress_keep cfg) (Z.to_N stress_hash_range) in
  kept = STRESS_MAX / cfg + 1 /\
  stress_hash_range <= cfg * kept <= stress_hash_range + cfg - 1.
Proof.
  intros Hr. apply (spec_fraction (stress_keep cfg) STRESS_MAX); [discriminate|lia|].
  intros h _. apply stress_keep_spec. lia.
Qed.
