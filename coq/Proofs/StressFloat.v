(* C15: the float expression of clusterStressLevel agrees with the integer model for up to four
   reports with levels 0..100.  Go:  uint(math.Sqrt(total / float64(availablePeers)))  with total the exact
   float64 sum of integer squares.  IEEE binary64 division and square root are Coq's primitive floats
   (kernel primitives, bit-exact); uint(f) = k  <->  float(k) <= f < float(k+1)  for these small values. *)
From Refinery Require Import Lib.Base.
From Coq Require Import Uint63 PrimFloat ZifyN.

Definition fl (x : N) : float := PrimFloat.of_uint63 (Uint63.of_Z (Z.of_N x)).
Definition float_rms (total n : N) : float := PrimFloat.sqrt (PrimFloat.div (fl total) (fl n)).
Definition rms_agrees (total n : N) : bool :=
  let k := N.sqrt (total / n) in
  let f := float_rms total n in
  (PrimFloat.leb (fl k) f && PrimFloat.ltb f (fl (k + 1)))%bool.

Fixpoint count_from (s : N) (len : nat) : list N :=
  match len with O => [] | S len' => s :: count_from (N.succ s) len' end.

Lemma In_count_from len : forall s i, In i (count_from s len) <-> (s <= i < s + N.of_nat len)%N.
Proof. induction len as [|len IH]; intros s i; cbn [count_from In]; [|rewrite IH]; lia. Qed.

Definition nrange (k : N) : list N := count_from 0 (N.to_nat k).

Lemma In_nrange k i : In i (nrange k) <-> (i < k)%N.
Proof. unfold nrange. rewrite In_count_from. lia. Qed.

(* the totals whose integer root is k, all at once: no integer root or quotient is evaluated *)
Definition bucket (n k : N) : bool :=
  let lo := fl k in let hi := fl (k + 1) in
  forallb (fun i => let f := float_rms (k * k * n + i) n in (PrimFloat.leb lo f && PrimFloat.ltb f hi)%bool)
          (nrange ((2 * k + 1) * n)).

Definition sweep (maxn maxl : N) : bool :=
  forallb (fun n => forallb (bucket (n + 1)) (nrange (maxl + 1))) (nrange maxn).

Lemma bucket_sound n k t :
  (1 <= n)%N -> bucket n k = true -> N.sqrt (t / n) = k -> rms_agrees t n = true.
Proof.
  intros Hn Hb Hk. unfold rms_agrees. rewrite Hk.
  (* k^2 <= t / n < (k+1)^2: t is k*k*n + i for one of the (2k+1)*n values of i the bucket runs through *)
  destruct (N.sqrt_spec (t / n) (N.le_0_l _)) as [Hlo Hhi]. rewrite Hk in Hlo, Hhi.
  pose proof (N.div_mod t n ltac:(lia)). pose proof (N.mod_lt t n ltac:(lia)).
  clear Hk. generalize dependent (t / n)%N. intros q Hlo Hhi Hdm.
  unfold bucket in Hb. rewrite forallb_forall in Hb.
  specialize (Hb (t - k * k * n)%N). rewrite In_nrange in Hb.
  replace (k * k * n + (t - k * k * n))%N with t in Hb by nia. apply Hb. nia.
Qed.

Lemma sweep_sound maxn maxl : sweep maxn maxl = true ->
  forall n t, (1 <= n <= maxn)%N -> (t <= n * maxl * maxl)%N -> rms_agrees t n = true.
Proof.
  unfold sweep. rewrite forallb_forall. intros H n t Hn Ht.
  specialize (H (n - 1)%N). rewrite In_nrange, forallb_forall in H.
  replace (n - 1 + 1)%N with n in H by lia.
  apply (bucket_sound n (N.sqrt (t / n))); [lia| |reflexivity].
  apply H; [lia|]. apply In_nrange.
  assert (Hq : (t / n <= maxl * maxl)%N) by (apply N.div_le_upper_bound; lia).
  apply N.sqrt_le_mono in Hq. rewrite N.sqrt_square in Hq. lia.
Qed.

(* 0..100 is the property's range of levels *)
Theorem float_rms_agrees_100 :
  forall n t, (1 <= n <= 4)%N -> (t <= n * 100 * 100)%N -> rms_agrees t n = true.
Proof. apply sweep_sound. vm_compute. reflexivity. Qed.
