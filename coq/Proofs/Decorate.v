(* Proofs about decoration (C06) on the forwarding model. *)
From Refinery Require Import Lib.Base Gen.GenC04 Model.Rates Model.Decorate Proofs.Rates.

Section Oracles.
Variable dec : N -> N * bool * string.
Variable sdec : N -> N * bool * string.
Notation step := (step dec sdec).
Notation run := (run dec sdec).
Notation decide_one := (decide_one dec).

Lemma run_cfg ops : forall s, cf (fst (run s ops)) = last_cfg (cf s) ops.
Proof.
  induction ops as [|o r IH]; intros s; [reflexivity|].
  rewrite run_cons. cbn [fst]. rewrite IH, (proj1 (step_cfg dec sdec s o)). destruct o; reflexivity.
Qed.

(* the host switch follows the option: reloadConfigs re-evaluates it ([host_reloaded], see [step_cfg]) *)
Lemma run_host ops s :
  host_cur s = c_hostmeta (cf s) -> host_cur (fst (run s ops)) = c_hostmeta (cf (fst (run s ops))).
Proof.
  apply (run_preserves dec sdec (fun s => host_cur s = c_hostmeta (cf s))).
  intros s' o H. destruct (step_cfg dec sdec s' o) as [-> ->]. destruct o; auto.
Qed.

Theorem config_in_force c0 ops :
  cf (fst (run (init c0) ops)) = last_cfg c0 ops /\
  host_cur (fst (run (init c0) ops)) = c_hostmeta (last_cfg c0 ops).
Proof. split; [apply run_cfg|]. rewrite run_host, run_cfg; reflexivity. Qed.

Definition deco_ok (s : st) (x : out) : Prop :=
  o_attrs x = c_attrs (cf s) /\ o_host x = host_cur s /\ (c_reason (cf s) = false -> o_reason x = EmptyString).

Lemma fwd_ontime_deco s R keep reason tr sp : deco_ok s (fwd_ontime s R keep reason tr sp).
Proof.
  unfold fwd_ontime. destruct (merge _ _ _) as [[[sr fin] orig] dr].
  destruct (root_counts _ _ _ _ _ _) as [[[sc ec] sev] lk]. repeat split. cbn. intros ->. reflexivity.
Qed.

Lemma fwd_late_deco s sp f x : In x (fwd_late s sp f) -> deco_ok s x.
Proof.
  unfold fwd_late, late_reason. destruct f as [| |r]; [intros []| |].
  - destruct (c_dry (cf s)); [|intros []]. intros [<-|[]]. repeat split. cbn. intros ->. reflexivity.
  - destruct (merge _ _ _) as [[[sr fin] orig] dr]. destruct (root_counts _ _ _ _ _ _) as [[[sc ec] sev] lk].
    intros [<-|[]]. repeat split. cbn. intros ->. reflexivity.
Qed.

Lemma fwd_stress_deco s sp R reason : deco_ok s (fwd_stress s sp R reason).
Proof.
  unfold fwd_stress. destruct (merge _ _ _) as [[[sr fin] orig] dr]. repeat split. cbn. intros ->. reflexivity.
Qed.

Lemma step_deco s o x : In x (snd (step s o)) -> deco_ok s x.
Proof.
  intros Hin. destruct o as [sp|sp| |c]; [| | |destruct Hin].
  - exact (fwd_late_deco _ _ _ _ (late_outs dec sdec s sp x Hin)).
  - destruct (stress_outs dec sdec s sp x Hin) as (R & reason & ->). apply fwd_stress_deco.
  - destruct (decide_outs dec sdec s x Hin) as (tid & tr & sp & _ & _ & _ & ->). apply fwd_ontime_deco.
Qed.

(* C06, on every forwarded span: the additional attributes and the host metadata of the configuration in
   force, and no reason when AddRuleReasonToTrace is off.  This is [step_deco] with [deco_ok] written out;
   the statement binds [s'] and does not use it. *)
Theorem forwarded_decoration s o x :
  In x (snd (step s o)) ->
  let s' := match o with Decide => s | _ => fst (step s o) end in
  o_attrs x = c_attrs (cf s) /\ o_host x = host_cur s /\
  (c_reason (cf s) = false -> o_reason x = EmptyString).
Proof. intros Hin _. exact (step_deco s o x Hin). Qed.

Lemma root_counts_expected c isroot d e l n :
  root_counts c isroot d e l n = if isroot then expected_root c (d, e, l, n) else (0, 0, 0, 0)%N.
Proof. destruct isroot; reflexivity. Qed.

Theorem ontime_reason_and_counts s x :
  In x (snd (step s Decide)) ->
  o_stressed x = false /\
  exists tid tr sp, In (tid, tr) (buf s) /\ In sp (t_spans tr) /\ o_sid x = s_id sp /\
    o_reason x = (if c_reason (cf s) then d_reason (dec tid) else EmptyString) /\
    counts_of x = (if s_root sp then expected_root (cf s) (cnt4 (t_spans tr)) else (0, 0, 0, 0)%N).
Proof.
  intros Hin. destruct (decide_outs dec sdec s x Hin) as (tid & tr & sp & Hl & Hsp & _ & ->).
  unfold fwd_ontime. destruct (merge _ _ _) as [[[sr fin] orig] dr].
  destruct (root_counts _ _ _ _ _ _) as [[[sc ec] sev] lk] eqn:Er.
  split; [reflexivity|]. exists tid, tr, sp. unfold cnt4. rewrite <- root_counts_expected, Er. auto 6.
Qed.

Theorem record_counts_at_decision s tid tr :
  d_keep (dec tid) = true ->
  exists r, alookup tid (kept (fst (decide_one s tid tr))) = Some r /\ rec4 r = cnt4 (t_spans tr) /\
            r_reason r = d_reason (dec tid).
Proof.
  intros Hk. rewrite decide_one_eq, Hk. cbn [fst kept set_kept]. rewrite alookup_aset_eq.
  eexists. split; [reflexivity|]. split; reflexivity.
Qed.

Theorem late_span_counted s sp x :
  In x (snd (step s (Span sp))) -> mem_N (s_tid sp) (dropped s) = false ->
  exists r, alookup (s_tid sp) (kept s) = Some r /\
    alookup (s_tid sp) (kept (fst (step s (Span sp)))) = Some (rec_count (s_ann sp) r) /\
    o_reason x = late_reason (cf s) (r_reason r) /\
    counts_of x = (if s_root sp then expected_root (cf s) (rec4 (rec_count (s_ann sp) r)) else (0, 0, 0, 0)%N).
Proof.
  rewrite step_Span, check_span_found. destruct (alookup (s_tid sp) (buf s)); [intros []|].
  intros Hin Hd. rewrite Hd in *. destruct (alookup (s_tid sp) (kept s)) as [r|]; [|destruct Hin].
  exists r. split; [reflexivity|]. cbn [fst snd kept set_kept fwd_late] in *. rewrite alookup_aset_eq.
  split; [reflexivity|]. unfold rec4. rewrite <- root_counts_expected.
  destruct (merge _ _ _) as [[[sr fin] orig] dr].
  destruct (root_counts _ _ _ _ _ _) as [[[sc ec] sev] lk]. destruct Hin as [<-|[]]. split; reflexivity.
Qed.

End Oracles.
