(* Proofs about the settings model: precedence of flag / env var / files / default, laws of the
   ${VAR} expansion automaton, and the generated tables. *)
From Refinery Require Import Lib.Base Gen.GenC29 Model.Settings.
Local Open Scope string_scope.

(* no cmdenv tag of the setting yields a set value (its flag if one is given, else its environment variable) *)
Definition no_option (cmd : list (option sval * option sval)) : Prop := first_set (map cmd_of cmd) = None.
(* a value that a later file replaces as a whole (maps merge key by key instead) *)
Definition scalar (v : sval) : Prop := match v with VMap _ => False | _ => True end.
Fixpoint no_char (c : ascii) (s : string) : bool :=
  match s with EmptyString => true | String x r => negb (Ascii.eqb x c) && no_char c r end.

(* an option that was not given, or given as the zero value, passes on to the next cmdenv tag *)
Lemma resolve_cons p r files d :
  resolve {| s_cmd := p :: r; s_files := files; s_default := d |} =
  match cmd_of p with
  | Some v => if is_set v then v else resolve {| s_cmd := r; s_files := files; s_default := d |}
  | None => resolve {| s_cmd := r; s_files := files; s_default := d |}
  end.
Proof. unfold resolve. cbn [s_cmd map first_set]. destruct (cmd_of p) as [v|]; [destruct (is_set v)|]; reflexivity. Qed.

Lemma resolve_no_option cmd fs d :
  no_option cmd ->
  resolve {| s_cmd := cmd; s_files := fs; s_default := d |} =
  match files_value fs with Some v => if is_set v then v else d | None => d end.
Proof. intros H. unfold resolve. cbn [s_cmd s_files s_default]. rewrite H. reflexivity. Qed.

Lemma merge_scalar acc v : scalar v -> merge_val acc (Some v) = Some v.
Proof. destruct v; cbn; intros H; try reflexivity. destruct H. Qed.

Lemma files_value_app a b : files_value (a ++ b) = fold_left merge_val b (files_value a).
Proof. apply fold_left_app. Qed.

Lemma fold_nones k acc : fold_left merge_val (repeat None k) acc = acc.
Proof. induction k as [|k IH]; [reflexivity|exact IH]. Qed.

Lemma files_value_nones k : files_value (repeat None k) = None.
Proof. apply fold_nones. Qed.

Lemma files_value_last fs v k : scalar v -> files_value (fs ++ Some v :: repeat None k) = Some v.
Proof. intros Hs. rewrite files_value_app. cbn [fold_left]. rewrite (merge_scalar _ v Hs). apply fold_nones. Qed.

Lemma map_put_nonempty k v m : map_put k v m <> [].
Proof. destruct m as [|[k' v'] r]; cbn; [|destruct (String.eqb k k')]; discriminate. Qed.

Lemma fold_map_put_nonempty m2 : forall m1, m1 <> [] -> fold_left (fun a kv => map_put (fst kv) (snd kv) a) m2 m1 <> [].
Proof. induction m2 as [|kv r IH]; intros m1 H; [exact H|]. apply IH, map_put_nonempty. Qed.

Lemma resolve_map_merge cmd m1 m2 d :
  no_option cmd -> m1 <> [] ->
  resolve {| s_cmd := cmd; s_files := [Some (VMap m1); Some (VMap m2)]; s_default := d |} =
  VMap (fold_left (fun a kv => map_put (fst kv) (snd kv) a) m2 m1).
Proof.
  intros Hc Hm. rewrite (resolve_no_option _ _ _ Hc). cbn.
  pose proof (fold_map_put_nonempty m2 m1 Hm) as H. destruct (fold_left _ m2 m1); [congruence|reflexivity].
Qed.

Lemma sapp_assoc (a b c : string) : (a ++ b) ++ c = a ++ (b ++ c).
Proof. induction a as [|x a IH]; cbn; [reflexivity|]. rewrite IH. reflexivity. Qed.
Lemma sapp_nil_r (a : string) : a ++ "" = a.
Proof. induction a as [|x a IH]; cbn; [reflexivity|]. rewrite IH. reflexivity. Qed.

Lemma no_char_cons c x r : no_char c (String x r) = true -> Ascii.eqb x c = false /\ no_char c r = true.
Proof. cbn. rewrite andb_true_iff, negb_true_iff. tauto. Qed.

(* what the automaton holds back in state st, and emits when the input ends there (the EmptyString branch of [xrun]) *)
Definition pending (st : xstate) : string :=
  match st with XNorm => "" | XDollar => "$" | XName acc => "${" ++ acc end.

Lemma xrun_unset env : (forall n, env n = "") -> forall s st, xrun env st s = pending st ++ s.
Proof.
  intros He. induction s as [|c r IH]; intros st.
  - destruct st; cbn; rewrite ?sapp_nil_r; reflexivity.
  - destruct st as [| |acc]; cbn [xrun pending].
    + destruct (Ascii.eqb_spec c dollar) as [->|_]; rewrite IH; reflexivity.
    + destruct (Ascii.eqb_spec c lbrace) as [->|_]; [|destruct (Ascii.eqb_spec c dollar) as [->|_]]; rewrite IH; reflexivity.
    + destruct (Ascii.eqb_spec c rbrace) as [->|_]; rewrite IH.
      * destruct (String.eqb_spec acc "") as [->|_]; [reflexivity|].
        unfold subst. rewrite He. cbn. rewrite sapp_assoc. reflexivity.
      * unfold snoc. cbn. rewrite sapp_assoc. reflexivity.
Qed.

Lemma xrun_plain_prefix env pre t : no_char dollar pre = true -> xrun env XNorm (pre ++ t) = pre ++ xrun env XNorm t.
Proof.
  induction pre as [|c r IH]; intros H; [reflexivity|]. apply no_char_cons in H. destruct H as [H1 H2].
  cbn [append xrun]. rewrite H1, IH by exact H2. reflexivity.
Qed.

Lemma expand_plain env s : no_char dollar s = true -> expand env s = s.
Proof.
  intros H. unfold expand. rewrite <- (sapp_nil_r s) at 1. rewrite xrun_plain_prefix by exact H.
  cbn. apply sapp_nil_r.
Qed.

Lemma xrun_name env name : forall acc post,
  no_char rbrace name = true -> acc ++ name <> "" ->
  xrun env (XName acc) (name ++ String rbrace post) = subst env (acc ++ name) ++ xrun env XNorm post.
Proof.
  induction name as [|c r IH]; intros acc post Hn Hne.
  - cbn [append xrun]. rewrite Ascii.eqb_refl. rewrite sapp_nil_r in *.
    destruct (String.eqb acc "") eqn:E; [apply String.eqb_eq in E; contradiction|reflexivity].
  - apply no_char_cons in Hn. destruct Hn as [H1 H2]. cbn [append xrun]. rewrite H1. rewrite IH; [|exact H2|].
    + unfold snoc. rewrite sapp_assoc. reflexivity.
    + unfold snoc. rewrite sapp_assoc. cbn. destruct acc; discriminate.
Qed.

(* scanning resumes AFTER the replacement (single pass) *)
Lemma expand_reference env pre name post :
  no_char dollar pre = true -> no_char rbrace name = true -> name <> "" ->
  expand env (pre ++ "${" ++ name ++ String rbrace post) = pre ++ subst env name ++ expand env post.
Proof.
  intros Hp Hn Hne. unfold expand. rewrite xrun_plain_prefix by exact Hp. f_equal.
  cbn [append xrun]. rewrite Ascii.eqb_refl.
  change (xrun env XDollar (String lbrace (name ++ String rbrace post))) with
         (xrun env (XName "") (name ++ String rbrace post)).
  rewrite xrun_name; [reflexivity|exact Hn|exact Hne].
Qed.

Lemma gen_expansion_covers : expansion_covers settings = true.
Proof. vm_compute. reflexivity. Qed.
Lemma gen_shape_holds : gen_shape_ok = true.
Proof. vm_compute. reflexivity. Qed.

Lemma every_string_setting_expanded r :
  In r settings -> carries_strings (row_under r) = true -> type_expanded (row_type r) = true.
Proof.
  intros Hin Hc. pose proof gen_expansion_covers as H. unfold expansion_covers in H.
  rewrite forallb_forall in H. specialize (H r Hin). apply andb_true_iff in H. destruct H as [_ H].
  rewrite Hc in H. cbn in H. exact H.
Qed.

Lemma effective_expanded env ty s :
  type_expanded ty = true -> effective env ty s = expand_val env (resolve s).
Proof. intros H. unfold effective. rewrite H. reflexivity. Qed.
