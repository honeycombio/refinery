(* No increment is lost, whatever the interleaving of the atomic steps. *)
From Refinery Require Import Lib.Base Model.MetricsConc.

(* a step moves an amount from what is outstanding into the cell, or from the program to the step in
   flight; Register and the LoadOrStore of a zero cell change neither *)
Lemma tstep_conserves c t :
  cval (fst (tstep false c t)) + outstanding_t (snd (tstep false c t)) = cval c + outstanding_t t.
Proof.
  destruct t as [[|n|n|n] todo reads]; [destruct todo as [|[n| |] r]|..]; destruct c; unfold outstanding_t; cbn; lia.
Qed.

Lemma outstanding_cons t r : outstanding (t :: r) = outstanding_t t + outstanding r.
Proof. reflexivity. Qed.

Lemma step_nth_conserves ts : forall c i,
  cval (fst (step_nth false c ts i)) + outstanding (snd (step_nth false c ts i)) = cval c + outstanding ts.
Proof.
  induction ts as [|t r IH]; intros c i; cbn [step_nth]; [destruct i; reflexivity|].
  destruct i as [|j].
  - pose proof (tstep_conserves c t) as H. destruct (tstep false c t) as [c' t'].
    cbn [fst snd] in *. rewrite !outstanding_cons. lia.
  - specialize (IH c j). destruct (step_nth false c r j) as [c' r'].
    cbn [fst snd] in *. rewrite !outstanding_cons. lia.
Qed.

Lemma run_conserves sched : forall cf,
  cval (cell (run false cf sched)) + outstanding (threads (run false cf sched)) = cval (cell cf) + outstanding (threads cf).
Proof.
  induction sched as [|i r IH]; intros cf; cbn [run]; [reflexivity|].
  pose proof (step_nth_conserves (threads cf) (cell cf) i) as H.
  destruct (step_nth false (cell cf) (threads cf) i) as [c' ts']. cbn [fst snd] in H.
  rewrite IH. cbn [cell threads]. exact H.
Qed.

Lemma outstanding_start progs : outstanding (threads (start progs)) = total progs.
Proof.
  unfold start. cbn [threads]. induction progs as [|p r IH]; [reflexivity|].
  cbn [map]. rewrite outstanding_cons, IH. unfold outstanding_t. cbn [t_pc t_todo pend].
  change (total (p :: r)) with (todo_sum p + total r). lia.
Qed.

Lemma finished_outstanding cf : finished cf = true -> outstanding (threads cf) = 0.
Proof.
  unfold finished. induction (threads cf) as [|t r IH]; [reflexivity|]. cbn [forallb].
  intros H. apply andb_true_iff in H. destruct H as [Ht Hr]. rewrite outstanding_cons, (IH Hr).
  unfold outstanding_t. destruct (t_pc t); try discriminate. destruct (t_todo t); [cbn; lia|discriminate].
Qed.

Theorem conservation progs sched :
  let cf := run false (start progs) sched in
  cval (cell cf) + outstanding (threads cf) = total progs.
Proof. cbn zeta. rewrite run_conserves, outstanding_start. reflexivity. Qed.

Theorem no_increment_lost progs sched :
  finished (run false (start progs) sched) = true ->
  cval (cell (run false (start progs) sched)) = total progs.
Proof.
  intros H. pose proof (conservation progs sched) as C. cbn zeta in C.
  rewrite (finished_outstanding _ H) in C. lia.
Qed.

(* the variant that ignores LoadOrStore's result loses an increment: both goroutines miss, the
   first publishes its pre-loaded cell, the second one's cell is dropped *)
Lemma ignore_loaded_refuted :
  exists progs sched,
    finished (run true (start progs) sched) = true /\
    cval (cell (run true (start progs) sched)) <> total progs.
Proof.
  exists [[CAdd 1]; [CAdd 1]], [0; 1; 0; 1]%nat. split; [reflexivity|]. vm_compute. discriminate.
Qed.

Lemma ignore_loaded_sequential_ok :
  cval (cell (run true (start [[CAdd 1; CAdd 5; CReg; CAdd 2]]) [0; 0; 0; 0; 0; 0; 0]%nat)) = 8.
Proof. reflexivity. Qed.
