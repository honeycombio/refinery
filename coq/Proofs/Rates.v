(* Proofs about the forwarding model (Model/Rates.v): the model as equations over the incoming state, what
   [step] and [run] do to the configuration, the buffer, the recorded rates and the output (DryRun.v and Decorate.v build on these), and the
   theorems on sample rates (C04). *)
From Coq Require Import ZifyN ZifyBool.
From Refinery Require Import Lib.Base Gen.GenC04 Model.Rates.

(* The constants of Gen/GenC04.v are read from the Go source at each build.  The facts about them hold by
   conversion; when the source changes one of them, the fact fails here and names the modelling choice
   that no longer stands. *)

(* the record keeps the rate in a uint: closed by conversion, [kept_rate_is_uint32] computes to false *)
Lemma store_rate_id : forall r, store_rate r = r.
Proof. reflexivity. Qed.

(* Every sampler and stress relief floor the rate they return at 1 (the rules sampler keeps only with a
   positive rate), and mergeTraceAndSpanSampleRates has the shape of [merge], flooring the client's rate.
   No theorem uses this: [1 <= R] is a hypothesis of [rate_exact], and this is the reason to believe it of
   the rates the code produces. *)
Definition floors_ok : bool :=
  floor_dynamic && floor_ema_dynamic && floor_ema_throughput && floor_total_throughput &&
  floor_windowed_throughput && floor_deterministic && rules_keep_needs_positive_rate && floor_stress &&
  merge_floors_client_rate && merge_shape_as_modelled.
Lemma floors_ok_true : floors_ok = true.
Proof. reflexivity. Qed.

(* the two texts of dealWithSentTrace are the ones [late_reason] of the model appends (C06, late spans) *)
Lemma late_reason_texts : late_reason_fmt = ("%s" ++ late_suffix)%string /\ late_reason_plain = late_only.
Proof. split; reflexivity. Qed.

Definition d_rate (d : N * bool * string) : N := fst (fst d).
Definition d_keep (d : N * bool * string) : bool := snd (fst d).
Definition d_reason (d : N * bool * string) : string := snd d.

(* mergeTraceAndSpanSampleRates floors the client's rate at 1 *)
Definition maxone (n : N) : N := if (n <? 1)%N then 1%N else n.

Lemma maxone_idem n : maxone (maxone n) = maxone n.
Proof. unfold maxone. destruct (n <? 1)%N eqn:E; [reflexivity|]. rewrite E. reflexivity. Qed.

(* what C04 asks of a span [o] forwarded from [sp] under the rate R, of its SampleRate, final_sample_rate and
   original_sample_rate *)
Definition rate_ok (o : out) (sp : span) (R : N) : Prop :=
  o_rate o = mul64 (maxone (s_rate sp)) R /\ o_final o = to_i64 (o_rate o) /\ o_orig o = s_rate sp.

Lemma merge_nodry client R :
  merge client R false = (mul64 (maxone client) R, to_i64 (mul64 (maxone client) R), client, None).
Proof. reflexivity. Qed.

Lemma merge_dry client R :
  merge client R true = (maxone client, 0, client, Some (mul64 (maxone client) R)).
Proof. reflexivity. Qed.

(* no wrap-around inside the property's ranges: the product stays below 2^63 *)
Lemma rate_exact o sp R :
  (s_rate sp < 2147483648)%N -> (1 <= R < two32)%N -> rate_ok o sp R ->
  o_rate o = (maxone (s_rate sp) * R)%N /\ o_final o = Z.of_N (o_rate o) /\ (1 <= o_rate o)%N /\
  o_orig o = s_rate sp.
Proof.
  intros Hc HR (Hr & Hf & Ho). unfold two32 in HR.
  assert (Hm : (1 <= maxone (s_rate sp) < 2147483648)%N).
  { unfold maxone. destruct (N.ltb_spec (s_rate sp) 1); lia. }
  assert (Hp : (maxone (s_rate sp) * R < two63)%N) by (unfold two63; nia).
  unfold mul64 in Hr. rewrite N.mod_small in Hr by (unfold two63, two64 in *; lia).
  rewrite Hf, Hr. unfold to_i64. destruct (N.ltb_spec (maxone (s_rate sp) * R) two63); [|lia].
  repeat split; [nia|exact Ho].
Qed.

Definition kept_rates (P : N -> N -> Prop) (k : amap rec) : Prop :=
  forall tid r, alookup tid k = Some r -> P tid (r_rate r).

Lemma kept_rates_aset (P : N -> N -> Prop) tid r k :
  P tid (r_rate r) -> kept_rates P k -> kept_rates P (aset tid r k).
Proof.
  intros Hr Hk t r'. rewrite alookup_aset. destruct (N.eqb_spec t tid) as [->|_]; [|apply Hk].
  intros [= <-]. exact Hr.
Qed.

Definition buf_tids (b : amap trace) : Prop :=
  forall tid tr, In (tid, tr) b -> Forall (fun sp => s_tid sp = tid) (t_spans tr).

Lemma buf_tids_In b tid tr sp : buf_tids b -> In (tid, tr) b -> In sp (t_spans tr) -> s_tid sp = tid.
Proof. intros Hb Hl Hsp. exact (proj1 (Forall_forall _ _) (Hb _ _ Hl) sp Hsp). Qed.

(* processSpan on a span that is not late *)
Definition add_span (sp : span) (b : amap trace) : amap trace :=
  aset (s_tid sp)
       match alookup (s_tid sp) b with
       | Some tr => {| t_spans := t_spans tr ++ [sp]; t_root := t_root tr || s_root sp |}
       | None => {| t_spans := [sp]; t_root := s_root sp |}
       end b.

Lemma buf_tids_add sp b : buf_tids b -> buf_tids (add_span sp b).
Proof.
  unfold add_span, aset. intros Hb t tr' [[= <- <-]|H]; [|exact (Hb _ _ (incl_aremove _ _ _ H))].
  destruct (alookup (s_tid sp) b) as [tr|] eqn:L; [|repeat constructor].
  apply Forall_app. split; [exact (Hb _ _ (alookup_In _ _ _ L))|repeat constructor].
Qed.

Definition set_buf (b : amap trace) (s : st) : st :=
  {| buf := b; kept := kept s; dropped := dropped s; cf := cf s; host_cur := host_cur s |}.
Definition set_kept (k : amap rec) (s : st) : st :=
  {| buf := buf s; kept := k; dropped := dropped s; cf := cf s; host_cur := host_cur s |}.
Definition set_dropped (d : list N) (s : st) : st :=
  {| buf := buf s; kept := kept s; dropped := d; cf := cf s; host_cur := host_cur s |}.

Section Oracles.
Variable dec : N -> N * bool * string.
Variable sdec : N -> N * bool * string.
(* the model's own constants are written [Rates.step], [Rates.run], ... where a [cbn] has to name them *)
Notation step := (step dec sdec).
Notation run := (run dec sdec).
Notation decide_all := (decide_all dec).
Notation decide_one := (decide_one dec).

(* [dec] is the trace sampler, [sdec] stress relief *)
Definition from_decision (tid R : N) : Prop :=
  (R = d_rate (dec tid) /\ d_keep (dec tid) = true) \/ (R = d_rate (sdec tid) /\ d_keep (sdec tid) = true).

(* [kept_rates from_decision (kept s) /\ buf_tids (buf s)], written out *)
Definition inv (s : st) : Prop :=
  (forall tid r, alookup tid (kept s) = Some r -> from_decision tid (r_rate r)) /\
  (forall tid tr, In (tid, tr) (buf s) -> Forall (fun sp => s_tid sp = tid) (t_spans tr)).

Lemma inv_init c : inv (init c).
Proof. split; [intros tid r; cbn; discriminate|intros tid tr []]. Qed.

Definition record_of (d : N * bool * string) (n_d n_e n_l n_s : N) : rec :=
  {| r_rate := store_rate (d_rate d); r_reason := d_reason d;
     r_desc := n_d; r_sev := n_e; r_link := n_l; r_span := n_s |}.

Lemma record_of_rate d n_d n_e n_l n_s : r_rate (record_of d n_d n_e n_l n_s) = d_rate d.
Proof. apply store_rate_id. Qed.

Lemma run_cons s o r :
  run s (o :: r) = (fst (run (fst (step s o)) r), snd (step s o) :: snd (run (fst (step s o)) r)).
Proof. cbn [Rates.run]. destruct (step s o) as [s1 o1]. cbn [fst snd]. destruct (run s1 r). reflexivity. Qed.

Lemma decide_all_cons s tid tr l :
  decide_all s ((tid, tr) :: l) =
  (fst (decide_all (fst (decide_one s tid tr)) l),
   snd (decide_one s tid tr) ++ snd (decide_all (fst (decide_one s tid tr)) l)).
Proof.
  cbn [Rates.decide_all]. destruct (decide_one s tid tr) as [s1 o1]. cbn [fst snd].
  destruct (decide_all s1 l). reflexivity.
Qed.

Lemma decide_one_eq s tid tr :
  decide_one s tid tr =
  (if d_keep (dec tid)
   then set_kept (aset tid (record_of (dec tid) (n_desc (t_spans tr)) (n_sev (t_spans tr))
                                      (n_link (t_spans tr)) (n_span (t_spans tr))) (kept s)) s
   else set_dropped (tid :: dropped s) s,
   if d_keep (dec tid) || c_dry (cf s)
   then map (fwd_ontime s (d_rate (dec tid)) (d_keep (dec tid)) (d_reason (dec tid)) tr) (t_spans tr)
   else []).
Proof.
  unfold Rates.decide_one, record_of, d_keep, d_rate, d_reason. destruct (dec tid) as [[rate keep] reason].
  destruct keep; destruct (c_dry (cf s)); reflexivity.
Qed.

Lemma step_Decide s : step s Decide = (set_buf [] (fst (decide_all s (buf s))), snd (decide_all s (buf s))).
Proof. cbn [Rates.step]. destruct (decide_all s (buf s)). reflexivity. Qed.

Lemma check_span_found s sp :
  snd (check_span s sp) =
  if mem_N (s_tid sp) (dropped s) then FDropped
  else match alookup (s_tid sp) (kept s) with Some r => FKept (rec_count (s_ann sp) r) | None => FNone end.
Proof.
  unfold check_span. destruct (mem_N (s_tid sp) (dropped s)); [reflexivity|].
  destruct (alookup (s_tid sp) (kept s)); reflexivity.
Qed.

Lemma step_Span s sp :
  step s (Span sp) =
  match alookup (s_tid sp) (buf s) with
  | Some _ => (set_buf (add_span sp (buf s)) s, [])
  | None => match snd (check_span s sp) with
            | FNone => (set_buf (add_span sp (buf s)) s, [])
            | FDropped => (s, fwd_late s sp FDropped)
            | FKept r => (set_kept (aset (s_tid sp) r (kept s)) s, fwd_late s sp (FKept r))
            end
  end.
Proof.
  cbn [Rates.step]. unfold add_span, check_span. destruct (alookup (s_tid sp) (buf s)); [reflexivity|].
  destruct (mem_N (s_tid sp) (dropped s)); [reflexivity|]. destruct (alookup (s_tid sp) (kept s)); reflexivity.
Qed.

Lemma step_Stress s sp :
  step s (Stress sp) =
  match snd (check_span s sp) with
  | FDropped => (s, [])
  | FKept r => (set_kept (aset (s_tid sp) r (kept s)) s, [fwd_stress s sp (r_rate r) (r_reason r)])
  | FNone =>
      if d_keep (sdec (s_tid sp))
      then (set_kept (aset (s_tid sp) (record_of (sdec (s_tid sp)) 0 0 0 0) (kept s)) s,
            [fwd_stress s sp (d_rate (sdec (s_tid sp))) (d_reason (sdec (s_tid sp)))])
      else (set_dropped (s_tid sp :: dropped s) s, [])
  end.
Proof.
  cbn [Rates.step]. unfold check_span. destruct (mem_N (s_tid sp) (dropped s)); [reflexivity|].
  destruct (alookup (s_tid sp) (kept s)); [reflexivity|].
  unfold record_of, d_keep, d_rate, d_reason. destruct (sdec (s_tid sp)) as [[rate keep] reason].
  destruct keep; reflexivity.
Qed.

Lemma run_invariant (I : st -> Prop) (ok : op -> bool) :
  (forall s o, I s -> ok o = true -> I (fst (step s o))) ->
  forall ops s, I s -> forallb ok ops = true -> I (fst (run s ops)).
Proof.
  intros Hstep. induction ops as [|o r IH]; intros s Hs Hok; [exact Hs|].
  cbn [forallb] in Hok. apply andb_true_iff in Hok. destruct Hok as [Ho Hr].
  rewrite run_cons. apply IH; [apply Hstep; assumption|exact Hr].
Qed.

Lemma run_preserves (I : st -> Prop) :
  (forall s o, I s -> I (fst (step s o))) -> forall ops s, I s -> I (fst (run s ops)).
Proof.
  intros Hstep ops s Hs. apply (run_invariant I (fun _ => true)); [auto|exact Hs|].
  apply forallb_forall. reflexivity.
Qed.

Lemma decide_all_invariant (I : st -> Prop) :
  (forall s tid tr, I s -> I (fst (decide_one s tid tr))) -> forall l s, I s -> I (fst (decide_all s l)).
Proof.
  intros Hone. induction l as [|[tid tr] l IH]; intros s Hs; [exact Hs|].
  rewrite decide_all_cons. cbn [fst]. apply IH, Hone, Hs.
Qed.

Lemma decide_one_frame s tid tr :
  cf (fst (decide_one s tid tr)) = cf s /\ host_cur (fst (decide_one s tid tr)) = host_cur s.
Proof. rewrite decide_one_eq. destruct (d_keep (dec tid)); split; reflexivity. Qed.

Lemma decide_all_frame l s : cf (fst (decide_all s l)) = cf s /\ host_cur (fst (decide_all s l)) = host_cur s.
Proof.
  apply (decide_all_invariant (fun s' => cf s' = cf s /\ host_cur s' = host_cur s)); [|split; reflexivity].
  intros s' tid tr [Hc Hh]. destruct (decide_one_frame s' tid tr) as [Hc' Hh']. split; congruence.
Qed.

(* The decisions made on the way change only the two stores, and the output of a decision reads only the
   configuration and the host switch: so every trace is sent on as if it were decided first. *)
Lemma decide_all_out l : forall s s0, cf s = cf s0 -> host_cur s = host_cur s0 ->
  snd (decide_all s l) = flat_map (fun p => snd (decide_one s0 (fst p) (snd p))) l.
Proof.
  induction l as [|[tid tr] l IH]; intros s s0 Hc Hh; [reflexivity|].
  rewrite decide_all_cons. cbn [fst snd flat_map]. f_equal.
  - rewrite !decide_one_eq. unfold fwd_ontime, host_on. cbn [snd]. rewrite Hc, Hh. reflexivity.
  - destruct (decide_one_frame s tid tr) as [Hc' Hh']. apply IH; congruence.
Qed.

Lemma step_Decide_out s :
  snd (step s Decide) = flat_map (fun p => snd (decide_one s (fst p) (snd p))) (buf s).
Proof. rewrite step_Decide. apply decide_all_out; reflexivity. Qed.

Lemma decide_outs s x :
  In x (snd (step s Decide)) ->
  exists tid tr sp, In (tid, tr) (buf s) /\ In sp (t_spans tr) /\ d_keep (dec tid) || c_dry (cf s) = true /\
                    x = fwd_ontime s (d_rate (dec tid)) (d_keep (dec tid)) (d_reason (dec tid)) tr sp.
Proof.
  rewrite step_Decide_out. intros H. apply in_flat_map in H. destruct H as ([tid tr] & Hl & H).
  rewrite decide_one_eq in H. cbn [fst snd] in H.
  destruct (d_keep (dec tid) || c_dry (cf s)) eqn:E; [|destruct H].
  apply in_map_iff in H. destruct H as (sp & <- & Hsp). exists tid, tr, sp. auto.
Qed.

Lemma late_outs s sp x : In x (snd (step s (Span sp))) -> In x (fwd_late s sp (snd (check_span s sp))).
Proof.
  rewrite step_Span. destruct (alookup (s_tid sp) (buf s)); [intros []|].
  destruct (snd (check_span s sp)); [intros []|auto|auto].
Qed.

Lemma stress_outs s sp x :
  In x (snd (step s (Stress sp))) -> exists R reason, x = fwd_stress s sp R reason.
Proof.
  rewrite step_Stress.
  destruct (snd (check_span s sp)); [destruct (d_keep (sdec (s_tid sp))); [|intros []]|intros []|];
    intros [<-|[]]; eauto.
Qed.

(* reloadConfigs re-evaluates the hostname and updateHostname takes it from the option: in the model,
   [Reload c] sets the host switch to [c_hostmeta c] *)
Lemma host_option_reloadable : host_reloaded && host_follows_option = true.
Proof. reflexivity. Qed.

(* the [Reload] case is closed by conversion: [host_reloaded] computes to true on Gen/GenC04.v *)
Lemma step_cfg s o :
  cf (fst (step s o)) = match o with Reload c => c | _ => cf s end /\
  host_cur (fst (step s o)) = match o with Reload c => c_hostmeta c | _ => host_cur s end.
Proof.
  destruct o as [sp|sp| |c]; [rewrite step_Span|rewrite step_Stress|rewrite step_Decide|split; reflexivity].
  - destruct (alookup (s_tid sp) (buf s)); [split; reflexivity|].
    destruct (snd (check_span s sp)); split; reflexivity.
  - destruct (snd (check_span s sp)); [destruct (d_keep (sdec (s_tid sp)))| |]; split; reflexivity.
  - apply decide_all_frame.
Qed.

Lemma step_buf (P : amap trace -> Prop) s o :
  P [] -> (forall sp, P (add_span sp (buf s))) -> P (buf s) -> P (buf (fst (step s o))).
Proof.
  intros Hnil Hadd Hb.
  destruct o as [sp|sp| |c]; [rewrite step_Span|rewrite step_Stress|rewrite step_Decide; exact Hnil|exact Hb].
  - destruct (alookup (s_tid sp) (buf s)); [apply Hadd|].
    destruct (snd (check_span s sp)); [apply Hadd|exact Hb|exact Hb].
  - destruct (snd (check_span s sp)); [destruct (d_keep (sdec (s_tid sp)))| |]; exact Hb.
Qed.

Lemma step_buf_tids s o : buf_tids (buf s) -> buf_tids (buf (fst (step s o))).
Proof.
  intros Hb. apply (step_buf buf_tids); [intros tid tr []|intros sp; exact (buf_tids_add sp _ Hb)|exact Hb].
Qed.

(* records are only made from a keep decision, and counting a late span leaves the rate alone *)
Lemma step_kept (P : N -> N -> Prop) s o :
  (forall tid, d_keep (dec tid) = true -> P tid (d_rate (dec tid))) ->
  (forall sp, o = Stress sp -> d_keep (sdec (s_tid sp)) = true -> P (s_tid sp) (d_rate (sdec (s_tid sp)))) ->
  kept_rates P (kept s) -> kept_rates P (kept (fst (step s o))).
Proof.
  intros Hdec Hsdec Hk.
  assert (Hf : forall sp r, snd (check_span s sp) = FKept r -> kept_rates P (aset (s_tid sp) r (kept s))).
  { intros sp r. rewrite check_span_found. destruct (mem_N (s_tid sp) (dropped s)); [discriminate|].
    destruct (alookup (s_tid sp) (kept s)) as [r0|] eqn:L; [|discriminate].
    intros [= <-]. apply kept_rates_aset; [exact (Hk _ _ L)|exact Hk]. }
  destruct o as [sp|sp| |c]; [rewrite step_Span|rewrite step_Stress|rewrite step_Decide|exact Hk].
  - destruct (alookup (s_tid sp) (buf s)); [exact Hk|].
    destruct (snd (check_span s sp)) eqn:E; [exact Hk|exact Hk|exact (Hf _ _ E)].
  - destruct (snd (check_span s sp)) eqn:E; [|exact Hk|exact (Hf _ _ E)].
    destruct (d_keep (sdec (s_tid sp))) eqn:D; [|exact Hk].
    apply kept_rates_aset; [|exact Hk]. rewrite record_of_rate. exact (Hsdec sp eq_refl D).
  - apply (decide_all_invariant (fun s' => kept_rates P (kept s'))); [|exact Hk].
    intros s' tid tr Hk'. rewrite decide_one_eq. destruct (d_keep (dec tid)) eqn:D; [|exact Hk'].
    apply kept_rates_aset; [|exact Hk']. rewrite record_of_rate. exact (Hdec tid D).
Qed.

Lemma step_inv s o : inv s -> inv (fst (step s o)).
Proof.
  intros [Hk Hb]. split; [|exact (step_buf_tids s o Hb)].
  apply (step_kept from_decision); [left|right|exact Hk]; auto.
Qed.

Lemma run_inv ops : forall s, inv s -> inv (fst (run s ops)).
Proof. exact (run_preserves inv step_inv ops). Qed.

(* The three per-operation theorems do not use [inv s]; only [forwarded_rates] needs it, to trace a recorded
   rate back to a decision and a buffered span to its trace. *)
Theorem ontime_uses_sampler_rate s out_ :
  inv s -> c_dry (cf s) = false -> In out_ (snd (step s Decide)) ->
  exists tid tr sp, In (tid, tr) (buf s) /\ In sp (t_spans tr) /\ o_sid out_ = s_id sp /\
                    d_keep (dec tid) = true /\ rate_ok out_ sp (d_rate (dec tid)).
Proof.
  intros _ Hdry Hin. destruct (decide_outs s out_ Hin) as (tid & tr & sp & Hl & Hsp & Hkeep & ->).
  rewrite Hdry, orb_false_r in Hkeep. exists tid, tr, sp. unfold fwd_ontime. rewrite Hdry, merge_nodry.
  destruct (root_counts _ _ _ _ _ _) as [[[sc ec] sev] lk]. repeat split; assumption.
Qed.

Theorem late_uses_recorded_rate s sp out_ :
  inv s -> c_dry (cf s) = false -> In out_ (snd (step s (Span sp))) ->
  exists r, alookup (s_tid sp) (kept s) = Some r /\ mem_N (s_tid sp) (dropped s) = false /\
            o_sid out_ = s_id sp /\ rate_ok out_ sp (r_rate r).
Proof.
  intros _ Hdry Hin. apply late_outs in Hin. rewrite check_span_found in Hin.
  destruct (mem_N (s_tid sp) (dropped s)); [cbn [fwd_late] in Hin; rewrite Hdry in Hin; destruct Hin|].
  destruct (alookup (s_tid sp) (kept s)) as [r|]; [|destruct Hin].
  cbn [fwd_late] in Hin. rewrite Hdry, merge_nodry in Hin.
  destruct (root_counts _ _ _ _ _ _) as [[[sc ec] sev] lk]. destruct Hin as [<-|[]].
  exists r. repeat split.
Qed.

Lemma fwd_stress_rate s sp R reason :
  c_dry (cf s) = false ->
  o_sid (fwd_stress s sp R reason) = s_id sp /\ o_stressed (fwd_stress s sp R reason) = true /\
  rate_ok (fwd_stress s sp R reason) sp R.
Proof. intros Hdry. unfold fwd_stress. rewrite Hdry, merge_nodry. repeat split. Qed.

Theorem stress_uses_stress_rate s sp out_ :
  inv s -> c_dry (cf s) = false -> In out_ (snd (step s (Stress sp))) ->
  o_sid out_ = s_id sp /\ o_stressed out_ = true /\
  ((alookup (s_tid sp) (kept s) = None /\ d_keep (sdec (s_tid sp)) = true /\ rate_ok out_ sp (d_rate (sdec (s_tid sp)))) \/
   (exists r, alookup (s_tid sp) (kept s) = Some r /\ rate_ok out_ sp (r_rate r))).
Proof.
  intros _ Hdry Hin. rewrite step_Stress, check_span_found in Hin.
  destruct (mem_N (s_tid sp) (dropped s)); [destruct Hin|].
  destruct (alookup (s_tid sp) (kept s)) as [r|].
  - destruct Hin as [<-|[]]. destruct (fwd_stress_rate s sp (r_rate r) (r_reason r) Hdry) as (Hsid & Hst & Hr).
    eauto 8.
  - destruct (d_keep (sdec (s_tid sp))); [|destruct Hin]. destruct Hin as [<-|[]].
    destruct (fwd_stress_rate s sp (d_rate (sdec (s_tid sp))) (d_reason (sdec (s_tid sp))) Hdry) as (Hsid & Hst & Hr).
    auto 6.
Qed.

Definition source (s : st) (o : op) (sp : span) : Prop :=
  match o with
  | Span sp' | Stress sp' => sp = sp'
  | Decide => exists tid tr, In (tid, tr) (buf s) /\ In sp (t_spans tr) /\ s_tid sp = tid
  | Reload _ => False
  end.

(* C04, general form: outside dry run every forwarded span carries client-rate (floored at 1) times the
   rate of a keep decision made for its trace, the product as final_sample_rate, the client rate as
   original_sample_rate *)
Theorem forwarded_rates s o out_ :
  inv s -> c_dry (cf s) = false -> In out_ (snd (step s o)) ->
  exists sp R, source s o sp /\ o_sid out_ = s_id sp /\ from_decision (s_tid sp) R /\ rate_ok out_ sp R.
Proof.
  intros Hinv Hdry Hin. pose proof Hinv as [Hk Hb]. destruct o as [sp|sp| |c].
  - destruct (late_uses_recorded_rate s sp out_ Hinv Hdry Hin) as (r & L & _ & Hsid & Hr).
    exists sp, (r_rate r). split; [reflexivity|]. eauto.
  - destruct (stress_uses_stress_rate s sp out_ Hinv Hdry Hin) as (Hsid & _ & [(_ & Hkeep & Hr)|(r & L & Hr)]).
    + exists sp, (d_rate (sdec (s_tid sp))). split; [reflexivity|]. split; [exact Hsid|].
      split; [right; auto|exact Hr].
    + exists sp, (r_rate r). split; [reflexivity|]. eauto.
  - destruct (ontime_uses_sampler_rate s out_ Hinv Hdry Hin) as (tid & tr & sp & Hl & Hsp & Hsid & Hkeep & Hr).
    pose proof (buf_tids_In _ _ _ _ Hb Hl Hsp) as Htid.
    exists sp, (d_rate (dec tid)). split; [exists tid, tr; auto|]. split; [exact Hsid|]. split; [|exact Hr].
    rewrite Htid. left. auto.
  - destruct Hin.
Qed.

End Oracles.
