(* Stress relief: the level (lazy expiry = age filter on latest reports; integer RMS facts; bound)
   and the switch (Recalc's mode switch = a function of the observable trace). *)
From Refinery Require Import Lib.Base Model.Stress.
(* ZifyBool lets lia read boolean equations; the proofs about the switch rely on it *)
From Coq Require Import ZifyN ZifyBool.

(* sstep matches on the pair that switch returns, which keeps cbn from reducing the Recalc arm;
   here it is with projections *)
Lemma sstep_recalc PT s local :
  sstep PT s (SRecalc local) =
  let kept := filter (recent PT (now s)) (aset 0%N (local, now s) (levels s)) in
  let lvl := N.max (rms kept) local in
  let sw := switch (cfg s) (now s) lvl (stressed s) (stayOn s) in
  ({| now := now s; cfg := cfg s; stressed := fst sw; stayOn := snd sw; levels := kept |},
   Some {| r_t := now s; r_cfg := cfg s; r_local := local; r_cluster := rms kept; r_level := lvl;
           r_on := fst sw |}).
Proof. cbn [sstep]. destruct (switch _ _ _ _ _). reflexivity. Qed.

Lemma recent_mono PT nw nw' kv : nw <= nw' -> recent PT nw' kv = true -> recent PT nw kv = true.
Proof. unfold recent. lia. Qed.

(* lazy expiry: what is recent in the node's map is what is recent among the latest reports *)
Definition lrefines (PT : Z) (s : sstate) (sp : lspec) : Prop :=
  now s = l_now sp /\ agree (recent PT (now s)) (levels s) (reports sp).

Lemma lstep_refines PT s sp o :
  op_ok o = true -> lrefines PT s sp ->
  option_map (fun q => (r_cluster q, r_level q)) (snd (sstep PT s o)) = snd (lstep PT sp o) /\
  lrefines PT (fst (sstep PT s o)) (fst (lstep PT sp o)).
Proof.
  intros Hop [Hnow H]. unfold lrefines. destruct o as [local|k lvl|d|c]; [rewrite sstep_recalc|..];
    cbn [sstep lstep fst snd option_map r_cluster r_level now levels l_now reports]; rewrite <- ?Hnow.
  - pose proof (agree_aset _ 0%N (local, now s) _ _ H) as H1.
    split; [rewrite H1; reflexivity|].
    split; [reflexivity|apply agree_filter_l; exact H1].
  - split; [reflexivity|]. split; [reflexivity|apply agree_aset; exact H].
  - apply Z.leb_le in Hop. split; [reflexivity|]. split; [lia|].
    apply (agree_mono (recent PT (now s))); [|exact H].
    intros kv. apply recent_mono. lia.
  - split; [reflexivity|]. split; [reflexivity|exact H].
Qed.

Lemma lrun_refines PT ops : forall s sp,
  ops_ok ops = true -> lrefines PT s sp ->
  map (fun q => (r_cluster q, r_level q)) (srun PT s ops) = lrun PT sp ops.
Proof.
  induction ops as [|o r IH]; intros s sp Hok HR; cbn [srun lrun map]; [reflexivity|].
  apply andb_true_iff in Hok as [Ho Hr].
  destruct (lstep_refines PT s sp o Ho HR) as [Hout HR'].
  destruct (sstep PT s o) as [s' out], (lstep PT sp o) as [sp' out'].
  cbn [fst snd] in *. subst out'. destruct out; cbn [option_map map]; [f_equal|]; apply IH; assumption.
Qed.

Theorem level_refines_reports PT t0 c ops :
  ops_ok ops = true ->
  map (fun q => (r_cluster q, r_level q)) (srun PT (sinit t0 c) ops) = lrun PT (linit t0) ops.
Proof. intros H. apply lrun_refines; [exact H|split; reflexivity]. Qed.

Lemma count1_ge m : (1 <= count1 m /\ N.of_nat (length m) <= count1 m)%N.
Proof. destruct m; cbn [count1 length]; lia. Qed.

Theorem rms_floor m :
  let nz := filter nonzero m in let c := rms m in
  (c * c * count1 nz <= sumsq nz /\ sumsq nz < (c + 1) * (c + 1) * count1 nz)%N.
Proof.
  intros nz c. subst c. unfold rms. fold nz.
  set (a := sumsq nz). set (n := count1 nz).
  assert (Hn : (1 <= n)%N) by apply count1_ge.
  pose proof (N.sqrt_spec (a / n) (N.le_0_l _)) as [Hlo Hhi].
  pose proof (N.mul_div_le a n ltac:(lia)). pose proof (N.mul_succ_div_gt a n ltac:(lia)).
  set (c := N.sqrt (a / n)) in *. split; nia.
Qed.

Definition levels_le (B : N) (m : amap (N * Z)) : Prop := Forall (fun kv => (fst (snd kv) <= B)%N) m.

Lemma sumsq_le B m : levels_le B m -> (sumsq m <= B * B * N.of_nat (length m))%N.
Proof.
  induction 1 as [|kv r Hkv _ IH]; cbn [sumsq fold_right length]; [lia|].
  fold (sumsq r). nia.
Qed.

Theorem rms_le B m : levels_le B m -> (rms m <= B)%N.
Proof.
  intros H. pose proof (rms_floor m) as [Hlo _]. cbv zeta in Hlo.
  pose proof (sumsq_le B _ (incl_Forall (incl_filter nonzero m) H)).
  pose proof (count1_ge (filter nonzero m)) as [H1 Hlen].
  apply N.square_le_simpl_nonneg; [lia|]. nia.
Qed.

Lemma levels_le_aset B k l t m : (l <= B)%N -> levels_le B m -> levels_le B (aset k (l, t) m).
Proof. intros Hl H. constructor; [exact Hl|exact (incl_Forall (incl_aremove k m) H)]. Qed.

Lemma bounded_run PT B ops : forall s,
  forallb (op_le B) ops = true -> levels_le B (levels s) ->
  Forall (fun q => (r_cluster q <= B /\ r_level q <= B /\ r_local q <= r_level q /\ r_cluster q <= r_level q)%N)
         (srun PT s ops).
Proof.
  induction ops as [|o r IH]; intros s Hops Hl; cbn [srun]; [constructor|].
  apply andb_true_iff in Hops as [Ho Hr].
  destruct o as [local|k lvl|d|c]; [rewrite sstep_recalc|..]; cbn [sstep op_le levels] in *.
  - apply N.leb_le in Ho.
    assert (Hk : levels_le B (filter (recent PT (now s)) (aset 0%N (local, now s) (levels s)))).
    { apply (incl_Forall (incl_filter _ _)), levels_le_aset; assumption. }
    pose proof (rms_le B _ Hk).
    constructor; [cbn [r_cluster r_level r_local]; lia|apply IH; assumption].
  - apply N.leb_le in Ho. apply IH; [exact Hr|apply levels_le_aset; assumption].
  - apply IH; assumption.
  - apply IH; assumption.
Qed.

Theorem level_bounded PT B t0 c ops :
  forallb (op_le B) ops = true ->
  Forall (fun q => (r_cluster q <= B /\ r_level q <= B /\ r_local q <= r_level q /\ r_cluster q <= r_level q)%N)
         (srun PT (sinit t0 c) ops).
Proof. intros H. apply bounded_run; [exact H|constructor]. Qed.

(* stayOnUntil, read off the trace *)
Definition stay_until (past : list srec) : option Z :=
  option_map (fun q => r_t q + c_mind (r_cfg q)) (last_above past).

Lemma stay_until_cons q past :
  stay_until (q :: past) = if held q then Some (r_t q + c_mind (r_cfg q)) else stay_until past.
Proof. unfold stay_until, last_above. cbn [find]. destruct (held q); reflexivity. Qed.

Lemma after_stay_until past nw : after nw (stay_until past) = hold_over past nw.
Proof. unfold stay_until, hold_over. destruct (last_above past); reflexivity. Qed.

(* from a state that matches the trace so far, the switch yields what expected_on says and a
   stayOnUntil that matches the trace extended by this recalculation *)
Lemma switch_trace past c nw local cl lvl :
  switch c nw lvl (on_of past) (stay_until past) =
  let on := expected_on past c nw lvl in
  (on, stay_until ({| r_t := nw; r_cfg := c; r_local := local; r_cluster := cl; r_level := lvl;
                      r_on := on |} :: past)).
Proof.
  cbv zeta. rewrite stay_until_cons. unfold held, is_monitor, switch, expected_on.
  cbn [r_t r_cfg r_level r_on]. destruct (c_mode c); [reflexivity| |reflexivity].
  (* at or above DeactivationLevel the hold is pushed out and relief stays as the first test left
     it; below, it goes off exactly when the hold is over *)
  rewrite N.ltb_antisym.
  destruct (c_deact c <=? lvl)%N, (on_of past || (c_act c <=? lvl)%N); cbn [andb negb];
    rewrite ?after_stay_until; try reflexivity.
  destruct (hold_over past nw); reflexivity.
Qed.

Lemma trace_run PT ops : forall s past,
  stressed s = on_of past -> stayOn s = stay_until past -> trace_ok past (srun PT s ops) = true.
Proof.
  induction ops as [|o r IH]; intros s past Hon Hst; cbn [srun]; [reflexivity|].
  destruct o as [local|k lvl|d|c]; [rewrite sstep_recalc|..]; cbn [sstep]; [|apply IH; assumption..].
  cbv zeta. set (kept := filter _ _). rewrite Hon, Hst, (switch_trace past _ _ local (rms kept)).
  cbn [fst snd trace_ok r_on r_cfg r_t r_level]. rewrite Bool.eqb_reflx. apply IH; reflexivity.
Qed.

Lemma trace_ok_app pre : forall past tr,
  trace_ok past (pre ++ tr) = trace_ok past pre && trace_ok (rev pre ++ past) tr.
Proof.
  induction pre as [|p r IH]; intros past tr; cbn [app trace_ok rev]; [reflexivity|].
  rewrite IH, <- app_assoc, andb_assoc. reflexivity.
Qed.

Theorem switch_follows_trace PT t0 c0 ops pre q post :
  srun PT (sinit t0 c0) ops = pre ++ q :: post ->
  r_on q = expected_on (rev pre) (r_cfg q) (r_t q) (r_level q).
Proof.
  intros E. pose proof (trace_run PT ops (sinit t0 c0) [] eq_refl eq_refl) as H.
  rewrite E, trace_ok_app, app_nil_r in H. cbn [trace_ok] in H. lia.
Qed.

Lemma exp_never past c nw lvl : c_mode c = MNever -> expected_on past c nw lvl = false.
Proof. intros E. unfold expected_on. rewrite E. reflexivity. Qed.
Lemma exp_always past c nw lvl : c_mode c = MAlways -> expected_on past c nw lvl = true.
Proof. intros E. unfold expected_on. rewrite E. reflexivity. Qed.

Lemma exp_monitor_on past c nw lvl :
  c_mode c = MMonitor -> (c_deact c <= c_act c)%N -> (c_act c <= lvl)%N -> expected_on past c nw lvl = true.
Proof. intros E Hda Hal. unfold expected_on. rewrite E. lia. Qed.

Lemma exp_on_only_if past c nw lvl :
  c_mode c = MMonitor -> on_of past = false -> expected_on past c nw lvl = true -> (c_act c <= lvl)%N.
Proof. intros E Hoff. unfold expected_on. rewrite E, Hoff. lia. Qed.

Lemma exp_off_only_if past c nw lvl :
  c_mode c = MMonitor -> on_of past = true -> expected_on past c nw lvl = false ->
  (lvl < c_deact c)%N /\
  match last_above past with
  | Some q => r_t q + c_mind (r_cfg q) < nw
  | None => True
  end.
Proof.
  intros E Hon. unfold expected_on, hold_over. rewrite E, Hon. destruct (last_above past); lia.
Qed.

Lemma exp_stays_on past c nw lvl :
  c_mode c = MMonitor -> on_of past = true ->
  ((c_deact c <= lvl)%N \/ exists q, last_above past = Some q /\ nw <= r_t q + c_mind (r_cfg q)) ->
  expected_on past c nw lvl = true.
Proof.
  intros E Hon H. unfold expected_on, hold_over. rewrite E, Hon.
  destruct H as [H|(q & -> & H)]; lia.
Qed.

(* the documented side condition matters: with DeactivationLevel above ActivationLevel a level in
   between switches relief on and off again within one recalculation *)
Lemma inverted_thresholds_example :
  let c := {| c_mode := MMonitor; c_act := 50; c_deact := 80; c_mind := 10 |} in
  srun 10 (sinit 0 c) [SRecalc 60] =
    [{| r_t := 0; r_cfg := c; r_local := 60; r_cluster := 60; r_level := 60; r_on := false |}]%N.
Proof. vm_compute. reflexivity. Qed.
