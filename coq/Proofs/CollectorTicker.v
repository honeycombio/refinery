(* The send ticker: ticks at t0, t0+ST, t0+2ST, ...  The first tick at or after a deadline d comes less
   than one period after d — together with C03_due_trace_decided_at_next_tick this is "decided at the
   next send tick". *)
From Refinery Require Import Lib.Base.

Lemma next_tick_within_period (t0 st d : Z) :
  0 < st -> t0 <= d ->
  exists k, 0 <= k /\ d <= t0 + k * st < d + st /\ forall j, 0 <= j < k -> t0 + j * st < d.
Proof.
  (* k = ceil ((d - t0) / st) *)
  intros Hst Hle. set (n := d - t0 + st - 1). exists (n / st).
  pose proof (Z.div_mod n st ltac:(lia)) as Hdm. pose proof (Z.mod_pos_bound n st Hst) as Hmod.
  split; [apply Z.div_pos; lia|]. split; [nia|]. intros j [Hj0 Hjk]. nia.
Qed.
