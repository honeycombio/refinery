(* tools/convert as modelled in Model/Convert.v: settings relocated by the generated table, the rules file
   converted section by section with the key fix-ups of its parameters, and when a nondefault setting is written. *)
From Refinery Require Import Lib.Base Gen.GenC38 Model.Convert.
Local Open Scope string_scope.

Lemma slookup_app_none {V} k (a b : list (string * V)) : slookup k a = None -> slookup k (a ++ b) = slookup k b.
Proof.
  induction a as [|[k' v] r IH]; cbn; [reflexivity|]. destruct (String.eqb k k'); [discriminate|exact IH].
Qed.

Lemma slookup_app_some {V} k (a b : list (string * V)) v : slookup k a = Some v -> slookup k (a ++ b) = Some v.
Proof.
  induction a as [|[k' v'] r IH]; cbn; [discriminate|]. destruct (String.eqb k k'); [auto|exact IH].
Qed.

Lemma convert_cfg_notin tbl c p : ~ In p (map snd tbl) -> slookup p (convert_cfg tbl c) = None.
Proof.
  induction tbl as [|[k q] r IH]; intros H; [reflexivity|]. cbn [map snd In] in H. cbn [convert_cfg flat_map fst snd].
  destruct (slookup k c); cbn [app slookup]; [destruct (String.eqb_spec p q) as [->|_]; [tauto|]|]; apply IH; tauto.
Qed.

Lemma convert_cfg_preserves tbl c k p :
  NoDup (map snd tbl) -> In (k, p) tbl -> slookup p (convert_cfg tbl c) = slookup k c.
Proof.
  induction tbl as [|[k' q] r IH]; intros Hnd Hin; [destruct Hin|].
  cbn [map snd] in Hnd. inversion Hnd as [|? ? Hn Hr]; subst.
  cbn [convert_cfg flat_map fst snd]. destruct Hin as [[= -> ->]|Hin].
  - destruct (slookup k c); cbn [app slookup]; [rewrite String.eqb_refl; reflexivity|apply convert_cfg_notin, Hn].
  - assert (p <> q) by (intros ->; exact (Hn (in_map snd _ _ Hin))).
    destruct (slookup k' c); cbn [app slookup]; [destruct (String.eqb_spec p q); [contradiction|]|]; apply IH; assumption.
Qed.

Fixpoint nodup_strings (l : list string) : bool :=
  match l with [] => true | x :: r => negb (existsb (String.eqb x) r) && nodup_strings r end.
Lemma nodup_strings_ok l : nodup_strings l = true -> NoDup l.
Proof.
  induction l as [|x r IH]; intros H; [constructor|]. cbn in H. apply andb_true_iff in H. destruct H as [H1 H2].
  constructor; [|apply IH; exact H2]. intros Hin. apply negb_true_iff in H1.
  assert (existsb (String.eqb x) r = true) by (apply existsb_exists; exists x; split; [exact Hin|apply String.eqb_refl]).
  congruence.
Qed.

Lemma gen_table_v2_paths_distinct : NoDup (map snd gen_table).
Proof. apply nodup_strings_ok. vm_compute. reflexivity. Qed.

Lemma gen_shape_holds : gen_shape_ok = true.
Proof. vm_compute. reflexivity. Qed.

Lemma find_section_cons name s l :
  find_section name (s :: l) = if String.eqb (se_name s) name then Some s else find_section name l.
Proof. reflexivity. Qed.

Lemma find_converted_notin ds name :
  ~ In name (map se_name ds) ->
  find_section name (map (fun x => conv_section (se_name x) x) (filter has_sampler ds)) = None.
Proof.
  induction ds as [|d r IH]; intros H; [reflexivity|]. cbn [map In] in H. cbn [filter].
  destruct (has_sampler d); [|apply IH; tauto]. cbn [map]. rewrite find_section_cons. cbn [conv_section se_name].
  destruct (String.eqb_spec (se_name d) name); [tauto|apply IH; tauto].
Qed.

Lemma find_converted ds s :
  NoDup (map se_name ds) -> In s ds ->
  find_section (se_name s) (map (fun x => conv_section (se_name x) x) (filter has_sampler ds)) =
  if has_sampler s then Some (conv_section (se_name s) s) else None.
Proof.
  induction ds as [|d r IH]; intros Hnd Hin; [destruct Hin|].
  cbn [map] in Hnd. inversion Hnd as [|? ? Hn Hr]; subst. cbn [filter]. destruct Hin as [->|Hin].
  - destruct (has_sampler s); [|apply find_converted_notin, Hn].
    cbn [map]. rewrite find_section_cons. cbn [conv_section se_name]. rewrite String.eqb_refl. reflexivity.
  - assert (se_name d <> se_name s) by (intros E; apply Hn; rewrite E; apply in_map, Hin).
    destruct (has_sampler d); [|apply IH; assumption]. cbn [map]. rewrite find_section_cons. cbn [conv_section se_name].
    destruct (String.eqb_spec (se_name d) (se_name s)); [contradiction|apply IH; assumption].
Qed.

Lemma convert_rules_find dflt ds s :
  NoDup (map se_name ds) -> ~ In "__default__" (map se_name ds) -> In s ds ->
  find_section (se_name s) (convert_rules dflt ds) = if has_sampler s then Some (conv_section (se_name s) s) else None.
Proof.
  intros Hnd Hd Hin. unfold convert_rules. rewrite find_section_cons. cbn [conv_section se_name].
  destruct (String.eqb_spec "__default__" (se_name s)) as [E|_]; [|apply find_converted; assumption].
  destruct Hd. rewrite E. apply in_map, Hin.
Qed.

Lemma conv_param_other k v : k <> "ClearFrequencySec" -> k <> "AdjustmentInterval" -> conv_param (k, v) = (k, v).
Proof. intros H1 H2. apply String.eqb_neq in H1, H2. unfold conv_param. cbn [fst]. rewrite H1, H2. reflexivity. Qed.

(* used for top-level samplers and for samplers nested in rules alike *)
Lemma conv_params_spec (l : list (string * Z)) :
  (forall k v, In (k, v) l -> k <> "ClearFrequencySec" -> k <> "AdjustmentInterval" -> In (k, v) (map conv_param l)) /\
  (forall v, In ("ClearFrequencySec", v) l -> In ("ClearFrequency", (v * second)%Z) (map conv_param l)) /\
  (forall v, In ("AdjustmentInterval", v) l -> In ("AdjustmentInterval", (v * second)%Z) (map conv_param l)).
Proof.
  split; [|split; intros v Hin; exact (in_map conv_param _ _ Hin)].
  intros k v Hin H1 H2. rewrite <- (conv_param_other k v H1 H2). exact (in_map conv_param _ _ Hin).
Qed.

Lemma emits_nondefault s : si_vt s = "nondefault" -> emits s = negb (String.eqb (si_text s) (si_mdefault s)).
Proof. intros Hv. unfold emits. rewrite Hv. reflexivity. Qed.
