(* The facts about the Go source that make deciding a trace one atomic model step; one turn of the take
   loop and of the eject loop as propositions (Proofs/CollectorTime.v builds on them too); then the
   detailed worker model (Model/Collector.v: step / run / sys_run) refines the abstract machine ([trans]),
   and the invariants of Proofs/CollectorAbs.v are read off for one worker and for the product of workers. *)
From Coq Require Import Permutation.
From Refinery Require Import Lib.Base Model.Collector Proofs.CollectorAbs Gen.GenC01.

(* What licenses [decide_one] (decision recorded, trace removed, and — if kept or dry run — ALL its spans
   handed to the transmission, in one atomic model step): facts re-read from the Go source on every run.
   Between makeDecision's Record and the transmission nothing can drop the trace:
   - every call of makeDecision in the tick and in the ejection (counted by calls, whatever the control
     structure around them) is followed, on the non-error path, by straight-line statements and `send`
     of what was decided; the error path only `continue`s;
   - `send` returns early only for an already-sent trace or a dropped one (2 returns), and hands the trace
     over with a plain blocking channel send — no select / default that could discard it when the queue is full;
   - `sendTraces` ranges over the queue until it is CLOSED — no select on a done channel that could abandon
     queued traces.
   If any of these stops holding, [send_path_lossless_holds] fails and this file with it. *)
Definition send_path_lossless : bool :=
  md_records_decision &&
  negb (Nat.eqb (length tick_decide_calls) 0) && Nat.eqb (length tick_decide_then_send_sites) (length tick_decide_calls) &&
  negb (Nat.eqb (length eject_decide_calls) 0) && Nat.eqb (length eject_decide_then_send_sites) (length eject_decide_calls) &&
  send_ends_with_plain_channel_send && negb send_has_select_or_default &&
  Nat.eqb (length send_returns) 2 && send_return_if_already_sent && send_return_if_dropped_and_not_dry &&
  sendtraces_ranges_over_queue_until_closed && negb sendtraces_has_select_or_done.
Lemma send_path_lossless_holds : send_path_lossless = true.
Proof. vm_compute. reflexivity. Qed.

Lemma is_min_deadline_spec buf d :
  is_min_deadline buf d = true <-> forall kv, In kv buf -> d <= t_sendby (snd kv).
Proof.
  unfold is_min_deadline. rewrite forallb_forall.
  split; intros H kv Hkv; apply Z.leb_le, H, Hkv.
Qed.

Lemma none_expired_spec buf now :
  none_expired buf now = true <-> forall kv, In kv buf -> now < t_sendby (snd kv).
Proof.
  unfold none_expired. rewrite forallb_forall.
  split; intros H kv Hkv; apply Z.ltb_lt, H, Hkv.
Qed.

Lemma take_loop_nil buf now max taken l :
  take_loop buf now max taken [] = Some l ->
  l = [] /\ (0 < max <= taken \/ forall kv, In kv buf -> now < t_sendby (snd kv)).
Proof.
  cbn [take_loop]. destruct (negb (is_empty buf) && ((max <=? 0) || (taken <? max))) eqn:G.
  - destruct (none_expired buf now) eqn:NE; [|discriminate]. intros [= <-].
    split; [reflexivity|right; apply none_expired_spec, NE].
  - intros [= <-]. split; [reflexivity|]. apply andb_false_iff in G. destruct G as [G|G].
    + right. destruct buf; [intros ? []|discriminate].
    + left. rewrite orb_false_iff, Z.leb_gt, Z.ltb_ge in G. lia.
Qed.

Lemma take_loop_cons buf now max taken t rest l :
  take_loop buf now max taken (t :: rest) = Some l ->
  exists tr l', l = (t, tr) :: l' /\ alookup t buf = Some tr /\ (0 < max -> taken < max) /\
    (forall kv, In kv buf -> t_sendby tr <= t_sendby (snd kv)) /\ t_sendby tr <= now /\
    take_loop (aremove t buf) now max (taken + 1) rest = Some l'.
Proof.
  cbn [take_loop]. destruct (negb (is_empty buf) && ((max <=? 0) || (taken <? max))) eqn:G; [|discriminate].
  destruct (alookup t buf) as [tr|]; [|discriminate].
  destruct (is_min_deadline buf (t_sendby tr) && negb (now <? t_sendby tr)) eqn:M; [|discriminate].
  destruct (take_loop (aremove t buf) now max (taken + 1) rest) as [l'|]; [|discriminate].
  intros [= <-]. exists tr, l'.
  rewrite andb_true_iff, orb_true_iff, Z.leb_le, Z.ltb_lt in G.
  rewrite andb_true_iff, is_min_deadline_spec, negb_true_iff, Z.ltb_ge in M.
  destruct G as [_ G], M as [Hmin Hdue].
  split; [reflexivity|]. split; [reflexivity|]. split; [lia|]. split; [exact Hmin|]. split; [exact Hdue|reflexivity].
Qed.

Lemma is_max_impact_spec tt buf i :
  is_max_impact tt buf i = true <-> forall kv, In kv buf -> trace_impact tt (snd kv) <= i.
Proof.
  unfold is_max_impact. rewrite forallb_forall.
  split; intros H kv Hkv; apply Z.leb_le, H, Hkv.
Qed.

Lemma eject_loop_nil buf tt bytes total l : eject_loop buf tt bytes total [] = Some l -> buf = [] /\ l = [].
Proof. cbn [eject_loop]. destruct buf; [intros [= <-]; split; reflexivity|discriminate]. Qed.

Lemma eject_loop_cons buf tt bytes total t rest l :
  eject_loop buf tt bytes total (t :: rest) = Some l ->
  exists tr, alookup t buf = Some tr /\
    (forall kv, In kv buf -> trace_impact tt (snd kv) <= trace_impact tt tr) /\
    ((bytes < total + data_size tr /\ rest = [] /\ l = [(t, tr)]) \/
     (total + data_size tr <= bytes /\
      exists l', l = (t, tr) :: l' /\ eject_loop (aremove t buf) tt bytes (total + data_size tr) rest = Some l')).
Proof.
  cbn [eject_loop]. destruct (alookup t buf) as [tr|]; [|discriminate].
  destruct (is_max_impact tt buf (trace_impact tt tr)) eqn:M; [|discriminate].
  intros H. exists tr. split; [reflexivity|]. split; [apply is_max_impact_spec, M|].
  destruct (Z.ltb_spec bytes (total + data_size tr)) as [B|B].
  - left. destruct rest; [|discriminate]. injection H as <-. auto.
  - right. destruct (eject_loop (aremove t buf) tt bytes (total + data_size tr) rest) as [l'|]; [|discriminate].
    injection H as <-. eauto.
Qed.

Section Ref.
  Variable sampler : N -> list span -> bool.
  Variable dry : bool.
  Notation decide_one := (decide_one sampler dry).
  Notation decide_list := (decide_list sampler dry).
  Notation step_total := (step_total sampler dry).
  Notation run := (run sampler dry).
  Notation arun := (arun dry).

  (* newest first: what the abstract machine buffers for the trace *)
  Definition sids (tr : trace) : list N := map s_id (t_spans tr).
  Definition proj (e : ev) : N * N := (fst (fst e), snd (fst e)).

  Definition absw (w : wstate) (x : ast) : Prop := a_buf x = mapv sids (w_buf w) /\ a_dec x = w_dec w.

  Lemma sids_add_span c now tr s : sids (add_span c now tr s) = s_id s :: sids tr.
  Proof. reflexivity. Qed.

  Definition simulates (x : ast) (aops : list aop) (w' : wstate) (e : list ev) : Prop :=
    absw w' (arun x aops) /\ a_out (arun x aops) = rev (map proj e) ++ a_out x.

  Lemma simulates_nil x w : absw w x -> simulates x [] w [].
  Proof. intros Ha. split; [exact Ha|reflexivity]. Qed.

  Lemma simulates_app x a1 w1 e1 a2 w2 e2 :
    simulates x a1 w1 e1 -> simulates (arun x a1) a2 w2 e2 -> simulates x (a1 ++ a2) w2 (e1 ++ e2).
  Proof.
    intros [_ O1] [A2 O2]. unfold simulates. rewrite arun_app. split; [exact A2|].
    rewrite O2, O1, map_app, rev_app_distr, app_assoc. reflexivity.
  Qed.

  Fixpoint coherent (buf : amap trace) (l : list (N * trace)) : Prop :=
    match l with
    | [] => True
    | (t, tr) :: r => alookup t buf = Some tr /\ coherent (aremove t buf) r
    end.

  Definition dec_aops (ver : N) (l : list (N * trace)) : list aop :=
    map (fun kv => ADecide (fst kv) (sampler ver (rev (t_spans (snd kv))))) l.

  Lemma take_loop_coherent ch : forall buf now max taken l,
    take_loop buf now max taken ch = Some l -> coherent buf l.
  Proof.
    induction ch as [|t rest IH]; intros buf now max taken l T.
    - apply take_loop_nil in T. destruct T as [-> _]. exact I.
    - apply take_loop_cons in T. destruct T as (tr & l' & -> & L & _ & _ & _ & R).
      split; [exact L|exact (IH _ _ _ _ _ R)].
  Qed.

  Lemma eject_loop_coherent ch : forall buf tt bytes total l,
    eject_loop buf tt bytes total ch = Some l -> coherent buf l.
  Proof.
    induction ch as [|t rest IH]; intros buf tt bytes total l T.
    - apply eject_loop_nil in T. destruct T as [_ ->]. exact I.
    - apply eject_loop_cons in T. destruct T as (tr & L & _ & [(_ & _ & ->)|(_ & l' & -> & R)]).
      + split; [exact L|exact I].
      + split; [exact L|exact (IH _ _ _ _ _ R)].
  Qed.

  Lemma decide_one_refines w x r t tr :
    alookup t (w_buf w) = Some tr -> absw w x ->
    simulates x [ADecide t (sampler (c_ver (w_cfg w)) (rev (t_spans tr)))]
              (fst (decide_one w r t tr)) (snd (decide_one w r t tr)).
  Proof.
    intros L [Hb Hd]. unfold simulates, Collector.arun. cbn [fold_left]. rewrite astep_decide.
    unfold spans. rewrite Hb, alookup_mapv, L. cbn [option_map a_buf a_dec a_out Collector.decide_one fst snd].
    split; [split; cbn [a_buf a_dec w_buf w_dec]; [rewrite mapv_aremove|]; congruence|].
    unfold fw. destruct (_ || dry); [|reflexivity]. f_equal.
    unfold sids. rewrite !map_map, map_rev, rev_involutive. reflexivity.
  Qed.

  Lemma decide_list_cons w rf t tr r :
    decide_list w rf ((t, tr) :: r) =
    (fst (decide_list (fst (decide_one w (rf tr) t tr)) rf r),
     snd (decide_one w (rf tr) t tr) ++ snd (decide_list (fst (decide_one w (rf tr) t tr)) rf r)).
  Proof. cbn [Collector.decide_list Collector.decide_one fst snd]. destruct (Collector.decide_list _ _ _ _ r). reflexivity. Qed.

  Lemma decide_list_refines rf l : forall w x,
    coherent (w_buf w) l -> absw w x ->
    simulates x (dec_aops (c_ver (w_cfg w)) l) (fst (decide_list w rf l)) (snd (decide_list w rf l)).
  Proof.
    induction l as [|[t tr] r IH]; intros w x Hc Ha; [apply simulates_nil, Ha|].
    destruct Hc as [L Hc]. pose proof (decide_one_refines w x (rf tr) t tr L Ha) as H1.
    rewrite decide_list_cons. exact (simulates_app _ [_] _ _ _ _ _ H1 (IH (fst (decide_one w (rf tr) t tr)) _ Hc (proj1 H1))).
  Qed.

  Definition trans (w : wstate) (o : op) : list aop :=
    match o with
    | OSpan now s => [ASpan (s_tid s) (s_id s)]
    | OTick now ch =>
        match take_loop (w_buf w) now (c_me (w_cfg w)) 0 ch with
        | Some l => dec_aops (c_ver (w_cfg w)) l | None => [] end
    | OEject bytes ch =>
        match eject_loop (w_buf w) (eject_tt (w_cfg w)) bytes 0 ch with
        | Some l => dec_aops (c_ver (w_cfg w)) l | None => [] end
    | OReload _ => []
    | OForget t => [AForget t]
    end.

  Lemma step_span_refines w now s x :
    absw w x -> simulates x [ASpan (s_tid s) (s_id s)] (fst (step_span dry w now s)) (snd (step_span dry w now s)).
  Proof.
    intros [Hb Hd]. unfold simulates, absw, Collector.arun, step_span. cbn [fold_left Collector.astep].
    rewrite Hb, alookup_mapv, Hd.
    destruct (alookup (s_tid s) (w_buf w)) as [tr|]; [|destruct (alookup (s_tid s) (w_dec w)) as [k|]];
      cbn [option_map fst snd a_buf a_dec a_out set_buf w_buf w_dec].
    - rewrite mapv_aset, sids_add_span. split; [split|]; reflexivity.
    - unfold fw. destruct (k || dry); (split; [split|]; reflexivity).
    - rewrite mapv_aset, sids_add_span. split; [split|]; reflexivity.
  Qed.

  Lemma step_refines w o x :
    absw w x -> simulates x (trans w o) (fst (step_total w o)) (snd (step_total w o)).
  Proof.
    intros Ha. destruct o as [now s|now ch|bytes ch|c|t]; unfold Collector.step_total; cbn [Collector.step trans].
    - apply step_span_refines, Ha.
    - unfold step_tick. destruct (take_loop _ _ _ _ _) as [l|] eqn:T; [|apply simulates_nil, Ha].
      apply decide_list_refines; [exact (take_loop_coherent _ _ _ _ _ _ T)|exact Ha].
    - unfold step_eject. destruct (eject_loop _ _ _ _ _) as [l|] eqn:T; [|apply simulates_nil, Ha].
      apply decide_list_refines; [exact (eject_loop_coherent _ _ _ _ _ _ T)|exact Ha].
    - apply simulates_nil, Ha.
    - destruct Ha as [Hb Hd]. split; [|reflexivity].
      split; cbn [Collector.arun fold_left Collector.astep a_buf a_dec fst w_buf w_dec]; congruence.
  Qed.

  Fixpoint atrans (w : wstate) (ops : list op) : list aop :=
    match ops with
    | [] => []
    | o :: r => trans w o ++ atrans (fst (step_total w o)) r
    end.

  Lemma run_cons w o r :
    run w (o :: r) = (fst (run (fst (step_total w o)) r),
                      snd (step_total w o) :: snd (run (fst (step_total w o)) r)).
  Proof.
    cbn [Collector.run]. destruct (step_total w o) as [w1 e]. cbn [fst snd].
    destruct (Collector.run sampler dry w1 r) as [w2 es]. reflexivity.
  Qed.

  Lemma atrans_app l1 : forall l2 w, atrans w (l1 ++ l2) = atrans w l1 ++ atrans (fst (run w l1)) l2.
  Proof.
    induction l1 as [|o r IH]; intros l2 w; [reflexivity|].
    rewrite run_cons. cbn [app atrans fst]. rewrite IH. apply app_assoc.
  Qed.

  Lemma run_refines ops : forall w x,
    absw w x -> simulates x (atrans w ops) (fst (run w ops)) (concat (snd (run w ops))).
  Proof.
    induction ops as [|o r IH]; intros w x Ha; [apply simulates_nil, Ha|].
    rewrite run_cons. pose proof (step_refines w o x Ha) as H1.
    exact (simulates_app _ _ _ _ _ _ _ H1 (IH _ _ (proj1 H1))).
  Qed.

  Definition accepted_by (ops : list op) (t s : N) : Prop :=
    exists now sp, In (OSpan now sp) ops /\ s_tid sp = t /\ s_id sp = s.
  Definition span_keys (ops : list op) : list (N * N) :=
    flat_map (fun o => match o with OSpan _ sp => [(s_tid sp, s_id sp)] | _ => [] end) ops.

  Lemma span_keys_cons o l : span_keys (o :: l) = span_keys [o] ++ span_keys l.
  Proof. unfold span_keys. cbn [flat_map]. rewrite app_nil_r. reflexivity. Qed.

  Lemma span_keys_in ops t s : In (t, s) (span_keys ops) <-> accepted_by ops t s.
  Proof.
    unfold span_keys, accepted_by. rewrite in_flat_map. split.
    - intros [[now sp| | | |] [Ho Hin]]; try (destruct Hin; fail). destruct Hin as [[= <- <-]|[]]. eauto.
    - intros [now [sp [Hin [<- <-]]]]. exists (OSpan now sp). split; [exact Hin|left; reflexivity].
  Qed.

  Lemma ghost_dec_aops ver l : accepted (dec_aops ver l) = [] /\ forgotten (dec_aops ver l) = [].
  Proof. induction l; [split; reflexivity|assumption]. Qed.

  Lemma ghost_trans w o :
    accepted (trans w o) = match o with OSpan _ sp => [(s_tid sp, s_id sp)] | _ => [] end /\
    forgotten (trans w o) = match o with OForget t => [t] | _ => [] end.
  Proof.
    destruct o; cbn [trans]; [|destruct (take_loop _ _ _ _ _)|destruct (eject_loop _ _ _ _ _)| |];
      try apply ghost_dec_aops; split; reflexivity.
  Qed.

  Lemma ghost_atrans ops : forall w,
    accepted (atrans w ops) = span_keys ops /\
    forall t, In t (forgotten (atrans w ops)) <-> In (OForget t) ops.
  Proof.
    induction ops as [|o r IH]; intros w; [split; [reflexivity|tauto]|]. cbn [atrans span_keys flat_map In].
    unfold accepted, forgotten. rewrite !flat_map_app. destruct (IH (fst (step_total w o))) as [IHa IHf].
    destruct (ghost_trans w o) as [Ea Ef]. split; [f_equal; assumption|].
    intros t. rewrite in_app_iff, IHf. unfold forgotten in Ef. rewrite Ef. destruct o; cbn [In]; intuition congruence.
  Qed.

  Definition forwarded (es : list (list ev)) (t s : N) : Prop := exists r, In (t, s, r) (concat es).

  Lemma forwarded_proj es t s : forwarded es t s <-> In (t, s) (rev (map proj (concat es))).
  Proof.
    unfold forwarded. rewrite <- in_rev, in_map_iff. split.
    - intros [r H]. exists (t, s, r). split; [reflexivity|exact H].
    - intros [[[t' s'] r] [[= -> ->] Hin]]. exists r. exact Hin.
  Qed.

  (* Every theorem about the worker is one of the two invariants of x carried over by the other four parts. *)
  Lemma worker_abs c ops :
    let x := arun ainit (atrans (winit c) ops) in
    let w := run (winit c) ops in
    AInv dry x /\ Bounded x /\ absw (fst w) x /\ a_out x = rev (map proj (concat (snd w))) /\
    a_acc x = rev (span_keys ops) /\ forall t, ~ In (OForget t) ops -> never_forgotten x t.
  Proof.
    destruct (run_refines ops (winit c) ainit (conj eq_refl eq_refl)) as [Ha Ho].
    destruct (ghost_arun dry (atrans (winit c) ops) ainit) as [Ea Ef].
    destruct (ghost_atrans ops (winit c)) as [Ga Gf].
    split; [apply arun_inv, ainit_inv|]. split; [apply arun_bounded, ainit_bounded|].
    split; [exact Ha|]. split; [rewrite Ho; apply app_nil_r|]. split; [rewrite Ea, Ga; apply app_nil_r|].
    intros t Hn. unfold never_forgotten. rewrite Ef, app_nil_r, <- in_rev, Gf. exact Hn.
  Qed.

  Theorem worker_place c ops t :
    ~ In (OForget t) ops ->
    let w := fst (run (winit c) ops) in
    let es := snd (run (winit c) ops) in
    match alookup t (w_dec w) with
    | None => forall s, ~ forwarded es t s /\
                        (accepted_by ops t s -> exists tr, alookup t (w_buf w) = Some tr /\ In s (sids tr))
    | Some k => alookup t (w_buf w) = None /\
                forall s, forwarded es t s <-> k || dry = true /\ accepted_by ops t s
    end.
  Proof.
    intros Hnf w es. destruct (worker_abs c ops) as (I & _ & [Hb Hd] & Ho & Ha & Hf).
    assert (Hacc : forall s, In (t, s) (a_acc (arun ainit (atrans (winit c) ops))) <-> accepted_by ops t s).
    { intros s. rewrite Ha, <- in_rev. apply span_keys_in. }
    pose proof (abs_place dry _ t I (Hf t Hnf)) as H. unfold spans in H. rewrite Hd, Hb, alookup_mapv in H. fold w in H.
    destruct (alookup t (w_dec w)) as [k|].
    - destruct H as [E H]. split; [destruct (alookup t (w_buf w)); [discriminate|reflexivity]|].
      intros s. unfold es. rewrite forwarded_proj, <- Ho, H, Hacc. reflexivity.
    - intros s. unfold es. rewrite forwarded_proj, <- Ho, <- Hacc. destruct (H s) as [H1 H2]. split; [exact H1|].
      intros Hs. apply H2 in Hs. destruct (alookup t (w_buf w)) as [tr|]; [eauto|destruct Hs].
  Qed.

  Theorem worker_all_or_none c ops t :
    ~ In (OForget t) ops ->
    match alookup t (w_dec (fst (run (winit c) ops))) with
    | Some k => if k || dry then (forall s, accepted_by ops t s <-> forwarded (snd (run (winit c) ops)) t s)
                else (forall s, ~ forwarded (snd (run (winit c) ops)) t s)
    | None => forall s, ~ forwarded (snd (run (winit c) ops)) t s
    end.
  Proof.
    intros Hnf. pose proof (worker_place c ops t Hnf) as H. cbn zeta in H.
    destruct (alookup t (w_dec (fst (run (winit c) ops)))) as [k|]; [destruct H as [_ H]|intros s; apply H].
    destruct (k || dry); intros s; rewrite H; [tauto|intros [[=] _]].
  Qed.

  Theorem worker_no_span_lost c ops t s :
    ~ In (OForget t) ops -> accepted_by ops t s ->
    match alookup t (w_dec (fst (run (winit c) ops))) with
    | None => exists tr, alookup t (w_buf (fst (run (winit c) ops))) = Some tr /\ In s (sids tr)
    | Some k => alookup t (w_buf (fst (run (winit c) ops))) = None /\
                (forwarded (snd (run (winit c) ops)) t s <-> k || dry = true)
    end.
  Proof.
    intros Hnf Hacc. pose proof (worker_place c ops t Hnf) as H. cbn zeta in H.
    destruct (alookup t (w_dec (fst (run (winit c) ops)))) as [k|]; [|apply H, Hacc].
    destruct H as [B H]. split; [exact B|]. rewrite H. tauto.
  Qed.

  Theorem worker_out_bounded c ops p :
    (cnt (map proj (concat (snd (run (winit c) ops)))) p <= cnt (span_keys ops) p)%nat.
  Proof.
    destruct (worker_abs c ops) as (_ & B & _ & Ho & Ha & _).
    rewrite <- (count_occ_rev _ (map proj _)), <- Ho, <- (count_occ_rev _ (span_keys ops)), <- Ha.
    apply bounded_out_acc, B.
  Qed.

  Theorem worker_nothing_invented c ops t s :
    forwarded (snd (run (winit c) ops)) t s -> accepted_by ops t s.
  Proof.
    rewrite forwarded_proj, <- in_rev, <- span_keys_in, !(count_occ_In key_dec).
    pose proof (worker_out_bounded c ops (t, s)). lia.
  Qed.

  Theorem worker_out_nodup c ops :
    NoDup (span_keys ops) -> NoDup (map proj (concat (snd (run (winit c) ops)))).
  Proof.
    rewrite !(NoDup_count_occ key_dec). intros Hnd p.
    exact (Nat.le_trans _ _ _ (worker_out_bounded c ops p) (Hnd p)).
  Qed.
End Ref.

Lemma nth_error_upd_eq {A} (l : list A) : forall i x y, nth_error l i = Some y -> nth_error (upd i x l) i = Some x.
Proof.
  induction l as [|a r IH]; intros [|i] x y; cbn; try discriminate; [reflexivity|]. apply IH.
Qed.
Lemma nth_error_upd_neq {A} (l : list A) : forall i j x, i <> j -> nth_error (upd j x l) i = nth_error l i.
Proof.
  induction l as [|a r IH]; intros [|i] [|j] x Hne; cbn; try reflexivity; try congruence.
  apply IH. congruence.
Qed.
Lemma length_upd {A} (l : list A) : forall i x, length (upd i x l) = length l.
Proof. induction l as [|a r IH]; intros [|i] x; cbn; try reflexivity. f_equal. apply IH. Qed.

Section RefSys.
  Variable sampler : N -> list span -> bool.
  Variable dry : bool.
  Notation step_total := (step_total sampler dry).
  Notation run := (run sampler dry).
  Notation sys_step := (sys_step sampler dry).
  Notation sys_run := (sys_run sampler dry).

  Definition pops (i : nat) (ops : list sop) : list op :=
    map sop_op (filter (fun so => Nat.eqb (sop_w so) i) ops).
  Fixpoint evs_at (i : nat) (ops : list sop) (es : list (list ev)) : list (list ev) :=
    match ops, es with
    | so :: r, e :: er => if Nat.eqb (sop_w so) i then e :: evs_at i r er else evs_at i r er
    | _, _ => []
    end.

  Lemma sys_run_cons ws so r :
    sys_run ws (so :: r) = (fst (sys_run (fst (sys_step ws so)) r),
                            snd (sys_step ws so) :: snd (sys_run (fst (sys_step ws so)) r)).
  Proof.
    cbn [Collector.sys_run]. destruct (sys_step ws so) as [ws1 e]. cbn [fst snd].
    destruct (Collector.sys_run sampler dry ws1 r) as [ws2 es]. reflexivity.
  Qed.

  Lemma sys_step_length ws so : length (fst (sys_step ws so)) = length ws.
  Proof.
    unfold Collector.sys_step. destruct (nth_error ws (sop_w so)) as [w|]; [|reflexivity].
    destruct (step_total w (sop_op so)). apply length_upd.
  Qed.
  Lemma sys_run_length_ws ops : forall ws, length (fst (sys_run ws ops)) = length ws.
  Proof.
    induction ops as [|so r IH]; intros ws; [reflexivity|]. rewrite sys_run_cons. cbn [fst].
    rewrite IH. apply sys_step_length.
  Qed.
  Lemma sys_run_lengths ops : forall ws, length (snd (sys_run ws ops)) = length ops.
  Proof.
    induction ops as [|so r IH]; intros ws; [reflexivity|]. rewrite sys_run_cons. cbn [snd length]. f_equal. apply IH.
  Qed.

  Theorem sys_run_proj ops : forall ws i w,
    nth_error ws i = Some w ->
    nth_error (fst (sys_run ws ops)) i = Some (fst (run w (pops i ops))) /\
    evs_at i ops (snd (sys_run ws ops)) = snd (run w (pops i ops)).
  Proof.
    induction ops as [|so r IH]; intros ws i w Hw; [split; [exact Hw|reflexivity]|].
    rewrite sys_run_cons. cbn [fst snd evs_at]. unfold pops. cbn [filter]. unfold Collector.sys_step.
    destruct (Nat.eqb_spec (sop_w so) i) as [->|Ei]; cbn [map]; fold (pops i r).
    - rewrite Hw, run_cons. destruct (step_total w (sop_op so)) as [w1 e]. cbn [fst snd].
      destruct (IH (upd i w1 ws) i w1 (nth_error_upd_eq _ _ _ _ Hw)) as [H1 H2].
      split; [exact H1|]. f_equal. exact H2.
    - apply IH. destruct (nth_error ws (sop_w so)) as [w0|]; [|exact Hw].
      destruct (step_total w0 (sop_op so)). cbn [fst]. rewrite nth_error_upd_neq; [exact Hw|congruence].
  Qed.

  Lemma sys_events_perm ops : forall ws,
    Permutation (concat (snd (sys_run ws ops)))
                (flat_map (fun i => concat (evs_at i ops (snd (sys_run ws ops)))) (seq 0 (length ws))).
  Proof.
    induction ops as [|so r IH]; intros ws.
    - cbn. induction (seq 0 (length ws)); [constructor|assumption].
    - rewrite sys_run_cons. cbn [fst snd concat evs_at]. specialize (IH (fst (sys_step ws so))).
      rewrite sys_step_length in IH. set (E i := concat (evs_at i r _)) in *. set (e := snd (sys_step ws so)).
      transitivity (flat_map (fun j => (if Nat.eqb (sop_w so) j then e else []) ++ E j) (seq 0 (length ws))).
      + rewrite flat_map_app_perm, flat_map_select by apply seq_NoDup.
        destruct (in_dec Nat.eq_dec (sop_w so) (seq 0 (length ws))) as [_|Hout];
          [apply Permutation_app_head, IH|].
        (* an op addressed to no worker emits nothing *)
        replace e with (@nil ev); [exact IH|]. unfold e, Collector.sys_step.
        destruct (nth_error ws (sop_w so)) eqn:F; [|reflexivity].
        destruct Hout. apply in_seq. split; [lia|]. apply nth_error_Some. congruence.
      + apply Permutation_refl', flat_map_ext. intros j. destruct (Nat.eqb (sop_w so) j); reflexivity.
  Qed.

  Lemma sys_events_by_worker n c ops :
    Permutation (concat (snd (sys_run (repeat (winit c) n) ops)))
                (flat_map (fun i => concat (snd (run (winit c) (pops i ops)))) (seq 0 n)).
  Proof.
    rewrite sys_events_perm, repeat_length, !flat_map_concat_map. apply Permutation_refl'. f_equal.
    apply map_ext_in. intros i Hi. apply in_seq in Hi. f_equal.
    apply (sys_run_proj ops _ i (winit c)), nth_error_repeat. lia.
  Qed.

  Lemma sys_forwarded_pops n c ops t s :
    forwarded (snd (sys_run (repeat (winit c) n) ops)) t s <->
    exists i, (i < n)%nat /\ forwarded (snd (run (winit c) (pops i ops))) t s.
  Proof.
    unfold forwarded. split.
    - intros [r Hin]. apply (Permutation_in _ (sys_events_by_worker n c ops)), in_flat_map in Hin.
      destruct Hin as [i [Hi Hin]]. apply in_seq in Hi. exists i. split; [lia|eauto].
    - intros [i [Hi [r Hin]]]. exists r.
      apply (Permutation_in _ (Permutation_sym (sys_events_by_worker n c ops))), in_flat_map.
      exists i. split; [apply in_seq; lia|exact Hin].
  Qed.

  Definition op_trace (o : op) : option N :=
    match o with OSpan _ sp => Some (s_tid sp) | OForget t => Some t | _ => None end.
  Definition routed (wk : N -> nat) (ops : list sop) : Prop :=
    forall so t, In so ops -> op_trace (sop_op so) = Some t -> sop_w so = wk t.

  Definition sys_accepted (ops : list sop) (t s : N) : Prop := accepted_by (map sop_op ops) t s.
  Definition sys_forgot (ops : list sop) (t : N) : Prop := exists i, In (SOp i (OForget t)) ops.

  Lemma pops_in i ops o : In o (pops i ops) <-> In (SOp i o) ops.
  Proof.
    unfold pops. rewrite in_map_iff. split.
    - intros [[j o'] [<- Hin]]. apply filter_In in Hin. destruct Hin as [Hin Hj].
      apply Nat.eqb_eq in Hj. cbn in Hj. subst. exact Hin.
    - intros Hin. exists (SOp i o). split; [reflexivity|]. apply filter_In. split; [exact Hin|apply Nat.eqb_refl].
  Qed.

  Lemma sys_accepted_pops ops t s :
    sys_accepted ops t s <-> exists i, accepted_by (pops i ops) t s.
  Proof.
    unfold sys_accepted, accepted_by. split.
    - intros [now [sp [Hin H]]]. apply in_map_iff in Hin. destruct Hin as [[i o] [Ho Hin]]. cbn in Ho. subst o.
      exists i, now, sp. split; [apply pops_in; exact Hin|exact H].
    - intros [i [now [sp [Hin H]]]]. exists now, sp. split; [|exact H].
      apply pops_in in Hin. exact (in_map sop_op _ _ Hin).
  Qed.

  Lemma routed_accepted wk ops i t s : routed wk ops -> accepted_by (pops i ops) t s -> i = wk t.
  Proof.
    intros Hr [now [sp [Hin [Ht _]]]]. apply pops_in in Hin. apply (Hr _ t Hin). cbn. congruence.
  Qed.

  (* Under routing a worker theorem about t, applied to [pops (wk t) ops], speaks of the whole system. *)
  Lemma routed_sys_accepted wk ops t s :
    routed wk ops -> (sys_accepted ops t s <-> accepted_by (pops (wk t) ops) t s).
  Proof.
    intros Hr. rewrite sys_accepted_pops. split; [|eauto].
    intros [i H]. rewrite <- (routed_accepted wk ops i t s Hr H). exact H.
  Qed.

  Lemma routed_sys_forwarded n c wk ops t s :
    routed wk ops -> (wk t < n)%nat ->
    (forwarded (snd (sys_run (repeat (winit c) n) ops)) t s <-> forwarded (snd (run (winit c) (pops (wk t) ops))) t s).
  Proof.
    intros Hr Hlt. rewrite sys_forwarded_pops. split; [|eauto].
    intros [i [_ H]]. rewrite <- (routed_accepted wk ops i t s Hr (worker_nothing_invented _ _ _ _ _ _ H)). exact H.
  Qed.

  Theorem sys_all_or_none n c wk ops t :
    routed wk ops -> (wk t < n)%nat -> ~ sys_forgot ops t ->
    let ws := fst (sys_run (repeat (winit c) n) ops) in
    let es := snd (sys_run (repeat (winit c) n) ops) in
    exists w, nth_error ws (wk t) = Some w /\
    match alookup t (w_dec w) with
    | Some k => if k || dry then (forall s, sys_accepted ops t s <-> forwarded es t s)
                else (forall s, ~ forwarded es t s)
    | None => forall s, ~ forwarded es t s
    end.
  Proof.
    intros Hr Hlt Hnf ws es.
    exists (fst (run (winit c) (pops (wk t) ops))).
    split; [apply (sys_run_proj ops), nth_error_repeat, Hlt|].
    assert (Hnf' : ~ In (OForget t) (pops (wk t) ops)).
    { rewrite pops_in. intros F. apply Hnf. exists (wk t). exact F. }
    pose proof (worker_all_or_none sampler dry c (pops (wk t) ops) t Hnf') as H.
    destruct (alookup t (w_dec (fst (run (winit c) (pops (wk t) ops))))) as [k|]; [destruct (k || dry)|];
      intros s; unfold es; rewrite ?(routed_sys_accepted wk ops t s Hr), (routed_sys_forwarded n c wk ops t s Hr Hlt);
      apply H.
  Qed.
End RefSys.
