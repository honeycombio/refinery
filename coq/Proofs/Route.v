(* Model/Route.v: processEvent does what the first-match decision table [table] says; every non-probe event
   is handed to exactly one sink (the stress path counts as the sink when it decides) or refused when this
   node owns the trace and its collector's queue is full, probes to none; what is forwarded to the owner
   differs from what was received only in APIHost, end to end from the client's fields; a probe marker
   emitted under stress is discarded by whoever receives it. *)
From Refinery Require Import Lib.Base Lib.SMap_route2 Gen.GenC19 Gen.GenC20 Model.Payload Proofs.Payload Model.Route.

Theorem route_realises_table nd e p : realises nd e p (table (facts_of nd p)) (route nd e p).
Proof.
  unfold route, table, facts_of; cbn [f_probe f_traced f_stress f_kept f_remote f_full].
  destruct (is_probe p); cbn [realises]; [reflexivity|].
  destruct (is_empty_str (meta_str meta_trace_id p)); cbn [negb realises]; [reflexivity|].
  destruct (n_stressed nd && n_processed nd).
  - destruct (n_kept nd); cbn [realises]; [|reflexivity].
    destruct (n_owner nd (meta_str meta_trace_id p)); reflexivity.
  - destruct (n_owner nd (meta_str meta_trace_id p)); cbn [realises app]; [reflexivity|].
    destruct (n_full nd); reflexivity.
Qed.

(* What the proofs use of the generated names and of the metadata table's entry for the probe flag. *)
Lemma probe_reserved : reserved meta_refinery_probe = true. Proof. vm_compute. reflexivity. Qed.
Lemma trace_ne_probe : meta_trace_id <> meta_refinery_probe. Proof. vm_compute. discriminate. Qed.
Lemma root_ne_probe : meta_refinery_root <> meta_refinery_probe. Proof. vm_compute. discriminate. Qed.
Lemma ua_ne_probe : meta_incoming_user_agent <> meta_refinery_probe. Proof. vm_compute. discriminate. Qed.
Lemma probe_prefix : sprefix "meta." meta_refinery_probe = true. Proof. vm_compute. reflexivity. Qed.
Lemma probe_type : meta_type meta_refinery_probe = Some MBool. Proof. vm_compute. reflexivity. Qed.

Lemma probe_marshal p : is_probe_data (marshal p) = is_probe p.
Proof.
  unfold is_probe_data, is_probe. rewrite marshal_lookup, probe_reserved. unfold emitted.
  destruct (slookup meta_refinery_probe (p_meta p)) as [v|]; [|reflexivity].
  destruct v; cbn [meta_emits]; try reflexivity.
  - destruct (negb (z =? 0)); reflexivity.
  - destruct (negb (is_empty_str s)); reflexivity.
Qed.

Lemma is_probe_set_probe p : is_probe (set_probe p) = true.
Proof. unfold is_probe, set_probe; cbn [p_meta with_meta]. rewrite slookup_sset_eq. reflexivity. Qed.

Lemma handlings_emit_nonprobe s e p l :
  is_probe p = false -> handlings (emit s e p :: l) = S (handlings l).
Proof.
  intros H. unfold handlings, is_marker; cbn [filter emit m_data m_sink]. rewrite probe_marshal, H.
  destruct s; reflexivity.
Qed.

Lemma handlings_emit_probe e p l :
  is_probe p = true -> handlings (emit SPeer e p :: l) = handlings l.
Proof.
  intros H. unfold handlings, is_marker; cbn [filter emit m_data m_sink]. rewrite probe_marshal, H. reflexivity.
Qed.

Theorem route_exactly_once nd e p :
  match route nd e p with
  | Done l => if is_probe p then l = [] else handlings l = 1%nat
  | Refused => is_probe p = false /\ n_full nd = true /\ n_owner nd (meta_str meta_trace_id p) = None
  | Rejected => False
  end.
Proof.
  unfold route. destruct (is_probe p) eqn:Hp; [reflexivity|].
  pose proof (fun s e' l => handlings_emit_nonprobe s e' p l Hp) as H1.
  destruct (is_empty_str (meta_str meta_trace_id p)); [apply H1|].
  destruct (n_stressed nd && n_processed nd).
  - destruct (n_kept nd); [|apply H1].
    destruct (n_owner nd (meta_str meta_trace_id p)); [|apply H1].
    cbn [app]. rewrite H1, handlings_emit_probe by apply is_probe_set_probe. reflexivity.
  - destruct (n_owner nd (meta_str meta_trace_id p)); [apply H1|].
    destruct (n_full nd); [auto|apply H1].
Qed.

Definition sinks (o : outcome) : list sink := match o with Done l => map m_sink l | _ => [] end.

Theorem untraced_goes_upstream_only nd e p :
  is_probe p = false -> meta_str meta_trace_id p = EmptyString ->
  route nd e p = Done [emit SUpstream e p].
Proof. intros Hp Ht. unfold route. rewrite Hp, Ht. reflexivity. Qed.

Theorem probes_reach_no_sink nd e p : is_probe p = true -> route nd e p = Done [].
Proof. intros Hp. unfold route. rewrite Hp. reflexivity. Qed.

Theorem owned_goes_to_collector nd e p :
  is_probe p = false -> meta_str meta_trace_id p <> EmptyString ->
  n_stressed nd && n_processed nd = false -> n_owner nd (meta_str meta_trace_id p) = None -> n_full nd = false ->
  route nd e p = Done [emit (if n_incoming nd then SCollector else SCollectorPeer) e p].
Proof.
  intros Hp Ht Hs Ho Hf. unfold route. rewrite Hp, Hs, Ho, Hf.
  destruct (meta_str meta_trace_id p); [contradiction|reflexivity].
Qed.

Theorem remote_goes_to_owner_unchanged nd e p addr :
  is_probe p = false -> meta_str meta_trace_id p <> EmptyString ->
  n_stressed nd && n_processed nd = false -> n_owner nd (meta_str meta_trace_id p) = Some addr ->
  exists m, route nd e p = Done [m] /\ m_sink m = SPeer /\
            v_apihost (m_env m) = addr /\
            v_apikey (m_env m) = v_apikey e /\ v_dataset (m_env m) = v_dataset e /\
            v_rate (m_env m) = v_rate e /\ v_sec (m_env m) = v_sec e /\ v_nsec (m_env m) = v_nsec e /\
            m_data m = marshal p.
Proof.
  intros Hp Ht Hs Ho. exists (emit SPeer (with_host e addr) p). unfold route. rewrite Hp, Hs, Ho.
  destruct (meta_str meta_trace_id p); [contradiction|]. cbn. repeat split; reflexivity.
Qed.

(* of the table's rows, only VPeer is realised by a single call on the peer transmission *)
Lemma realises_single_peer nd e p v m :
  realises nd e p v (Done [m]) -> m_sink m = SPeer -> exists a, m = emit SPeer (with_host e a) p.
Proof.
  destruct v as [| | |a| |[a|]|]; cbn [realises]; try discriminate; intros [= ->]; cbn [emit m_sink].
  - discriminate.
  - destruct (n_incoming nd); discriminate.
  - exists a. reflexivity.
  - discriminate.
  - discriminate.
Qed.

Section EndToEnd.
  Variable widen : N -> N.

  Theorem peer_forward_keeps_fields nd pa c ua e fs m :
    NoDup (skeys fs) ->
    process widen nd pa c ua e fs = Done [m] -> m_sink m = SPeer ->
    v_apikey (m_env m) = v_apikey e /\ v_dataset (m_env m) = v_dataset e /\
    v_rate (m_env m) = v_rate e /\ v_sec (m_env m) = v_sec e /\ v_nsec (m_env m) = v_nsec e /\
    NoDup (skeys (m_data m)) /\
    (forall k, reserved k = false ->
        option_map (canon widen) (slookup k (m_data m)) =
        option_map (fun v => canon widen (path_spec pa v)) (slookup k fs)) /\
    (forall k, In k (skeys (m_data m)) -> reserved k = true \/ In k (skeys fs)).
  Proof.
    intros Hnd Hpr Hs. unfold process in Hpr.
    destruct (ingest widen pa c ua fs) as [p|] eqn:Ei; [|discriminate].
    assert (Hnp : is_probe p = false).
    { destruct (is_probe p) eqn:Hp; [|reflexivity]. rewrite (probes_reach_no_sink nd e p Hp) in Hpr. discriminate. }
    pose proof (route_realises_table nd e p) as Ht. rewrite Hpr in Ht.
    destruct (realises_single_peer _ _ _ _ _ Ht Hs) as [a ->].
    (* what the owner receives is what [forward] yields when the collector has done nothing yet *)
    assert (Hfw : forward widen pa c ua fs [] = Some (marshal p)).
    { unfold forward. rewrite Ei, Hnp. reflexivity. }
    destruct (forward_preserves widen pa c ua fs [] (marshal p) Hnd Hfw) as (H1 & H2 & H3 & _).
    cbn [emit m_env m_data with_host v_apikey v_dataset v_rate v_sec v_nsec].
    repeat split; try reflexivity; try exact H1.
    - intros k Hr. apply H2; [exact Hr|]. intros [].
    - intros k Hin. destruct (H3 k Hin) as [H|[H|[]]]; [left|right]; exact H.
  Qed.
End EndToEnd.

Lemma meta_only_probe ks p q : meta_only ks p q -> ~ In meta_refinery_probe ks -> is_probe q = is_probe p.
Proof. intros [_ H] Hn. unfold is_probe. rewrite (H _ Hn). reflexivity. Qed.

Lemma extract_step_sets_probe c keys p n p' n' :
  extract_step c keys (p, n) (meta_refinery_probe, VBool true) = Some (p', n') -> is_probe p' = true.
Proof.
  unfold extract_step. rewrite probe_prefix, probe_type. cbn [wire_type_ok meta_unmarshal].
  intros [= <- <-]. apply is_probe_set_probe.
Qed.

Lemma extract_step_keeps_probe c keys p n k v p' n' :
  k <> meta_refinery_probe -> extract_step c keys (p, n) (k, v) = Some (p', n') -> is_probe p' = is_probe p.
Proof.
  intros Hne Hs. destruct (extract_step_cases _ _ _ _ _ _ _ _ Hs) as [->|H].
  - unfold is_probe. rewrite pset_meta_other by congruence. reflexivity.
  - apply (meta_only_probe _ _ _ H).
    intros [E|[E|[E|[]]]]; [exact (Hne E)|exact (trace_ne_probe E)|exact (root_ne_probe E)].
Qed.

(* Keys are unique: either the field that sets the flag is still ahead, or the flag is stored and
   no later field can overwrite it. *)
Lemma extract_loop_probe c keys l : forall p n p' n',
  NoDup (skeys l) ->
  extract_loop c keys (p, n) l = Some (p', n') ->
  match slookup meta_refinery_probe l with Some v => v = VBool true | None => is_probe p = true end ->
  is_probe p' = true.
Proof.
  induction l as [|[k v] r IH]; intros p n p' n' Hnd Hl Hc; cbn [extract_loop slookup] in *.
  - injection Hl as <- <-. exact Hc.
  - cbn [skeys map fst] in Hnd. apply NoDup_cons_iff in Hnd. destruct Hnd as [Hn Hr].
    destruct (extract_step c keys (p, n) (k, v)) as [[p1 n1]|] eqn:E; [|discriminate].
    apply (IH p1 n1 p' n' Hr Hl).
    destruct (String.eqb_spec meta_refinery_probe k) as [<-|Hne].
    + subst v. apply slookup_None_notin in Hn. rewrite Hn. exact (extract_step_sets_probe _ _ _ _ _ _ E).
    + destruct (slookup meta_refinery_probe r); [exact Hc|].
      rewrite (extract_step_keeps_probe _ _ _ _ _ _ _ _ (not_eq_sym Hne) E). exact Hc.
Qed.

Lemma extract_probe c keys fs p0 p' :
  NoDup (skeys fs) -> slookup meta_refinery_probe fs = Some (VBool true) ->
  extract c keys fs p0 = Some p' -> is_probe p' = true.
Proof.
  intros Hnd Hin. unfold extract.
  destruct (extract_loop c keys (root_default p0, 0%nat) fs) as [[p1 n1]|] eqn:E; [|discriminate].
  apply extract_loop_probe in E; [|exact Hnd|rewrite Hin; reflexivity]. intros [= <-].
  rewrite (meta_only_probe _ _ _ (log_unsets_root_meta_only _)) by (intros [H|[]]; exact (root_ne_probe H)).
  destruct (n1 <? length keys)%nat; exact E.
Qed.

Section ProbeHop.
  Variable widen : N -> N.

  (* whatever a node forwards with the probe flag set is discarded by the node that receives it on
     the msgpack batch endpoint (the only way peers talk), in any state of that node *)
  Theorem probe_marker_is_discarded p nd' c' ua' e' :
    NoDup (skeys (p_raw p)) -> NoDup (skeys (p_memo p)) ->
    match process widen nd' PBatchMsgp c' ua' e' (marshal (set_probe p)) with
    | Done l => l = []
    | Rejected => True
    | Refused => False
    end.
  Proof.
    intros Hr Hm. unfold process, ingest.
    assert (Hin : slookup meta_refinery_probe (marshal (set_probe p)) = Some (VBool true)).
    { rewrite marshal_lookup, probe_reserved.
      unfold emitted, set_probe; cbn [with_meta p_meta]. rewrite slookup_sset_eq. reflexivity. }
    assert (Hnd : NoDup (skeys (marshal (set_probe p)))) by (apply marshal_NoDup; assumption).
    destruct (marshal (set_probe p)) as [|f0 fr] eqn:Em; [exact I|]. rewrite <- Em in *.
    unfold ingest_raw. destruct (extract c' (key_fields c') _ _) as [p'|] eqn:Ex; [|exact I].
    apply extract_probe in Ex; [|exact Hnd|exact Hin].
    rewrite (probes_reach_no_sink nd' e' (add_ua ua' p')); [reflexivity|].
    rewrite (meta_only_probe _ _ _ (add_ua_meta_only ua' p')); [exact Ex|].
    intros [H|[]]. exact (ua_ne_probe H).
  Qed.
End ProbeHop.

(* The decision structure of processEvent as found in the text of route.go (Gen/GenC19.v), recomputed
   on every run. *)
Definition source_shape_ok : bool :=
  pe_probe_checked_before_trace_id && pe_untraced_goes_upstream && pe_stress_before_sharding &&
  pe_peer_only_rewrites_apihost && pe_collector_by_listener &&
  list_eqb String.eqb pe_event_field_writes ["ev.APIHost"%string] &&
  list_eqb String.eqb pe_sink_calls
    ["r.UpstreamTransmission.EnqueueEvent"; "r.Collector.ProcessSpanImmediately";
     "r.PeerTransmission.EnqueueEvent"; "r.Collector.AddSpan"; "r.Collector.AddSpanFromPeer"]%string.
