(* Timing (C03), liveness (C02) and ejection (C07) facts about the worker model: the deadline formula,
   what a tick takes and why, what an ejection takes and why.  [remove_all] is what a tick or an
   ejection does to the buffer. *)
From Refinery Require Import Lib.Base Model.Collector Proofs.CollectorAbs Proofs.CollectorRef.

Definition remove_all {V} (keys : list N) (b : amap V) : amap V := fold_left (fun m t => aremove t m) keys b.

Lemma remove_all_cons {V} t keys (b : amap V) : remove_all (t :: keys) b = remove_all keys (aremove t b).
Proof. reflexivity. Qed.

Lemma In_remove_all {V} keys : forall (b : amap V) kv, In kv (remove_all keys b) <-> In kv b /\ ~ In (fst kv) keys.
Proof.
  induction keys as [|t r IH]; intros b kv; [cbn; tauto|].
  rewrite remove_all_cons, IH, In_aremove. cbn [In]. intuition congruence.
Qed.

Lemma remove_all_incl {V} keys (b : amap V) : incl (remove_all keys b) b.
Proof. intros kv H. apply In_remove_all in H. apply H. Qed.

Lemma alookup_remove_all {V} keys : forall (b : amap V) t,
  alookup t (remove_all keys b) = if in_dec N.eq_dec t keys then None else alookup t b.
Proof.
  induction keys as [|k r IH]; intros b t; [reflexivity|]. rewrite remove_all_cons, IH, alookup_aremove.
  destruct (in_dec N.eq_dec t r) as [Hr|Hr], (in_dec N.eq_dec t (k :: r)) as [Hk|Hk], (N.eqb_spec t k) as [E|E];
    try reflexivity; exfalso; cbn [In] in Hk; intuition congruence.
Qed.

Lemma NoDup_remove_all {V} keys : forall (b : amap V), NoDup (akeys b) -> NoDup (akeys (remove_all keys b)).
Proof.
  induction keys as [|k r IH]; intros b H; [exact H|].
  rewrite remove_all_cons. apply IH, NoDup_akeys_aremove, H.
Qed.

Lemma remove_all_covering {V} keys (b : amap V) : incl (akeys b) keys -> remove_all keys b = [].
Proof.
  intros Hc. apply incl_l_nil. intros kv H. apply In_remove_all in H. destruct H as [H Hn].
  destruct (Hn (Hc _ (in_map fst _ _ H))).
Qed.

Lemma length_filter_remove_all_le {V} (p : N * V -> bool) ks : forall (b : amap V),
  (length (filter p (remove_all ks b)) <= length (filter p b))%nat.
Proof.
  induction ks as [|k r IH]; intros b; [apply Nat.le_refl|].
  exact (Nat.le_trans _ _ _ (IH (aremove k b)) (length_filter_aremove_le p k b)).
Qed.

Lemma length_filter_remove_all {V} (p : N * V -> bool) ks : forall (b : amap V),
  NoDup (akeys b) -> NoDup ks ->
  (forall k, In k ks -> exists v, alookup k b = Some v /\ p (k, v) = true) ->
  (length (filter p (remove_all ks b)) + length ks = length (filter p b))%nat.
Proof.
  induction ks as [|k r IH]; intros b Hnd Hks Hall; [apply Nat.add_0_r|].
  rewrite remove_all_cons. inversion Hks as [|? ? Hn Hr]; subst. destruct (Hall k (or_introl eq_refl)) as [v [Hl Hp]].
  rewrite (length_filter_aremove p k v b Hnd Hl), Hp, <- (IH (aremove k b)); [cbn [length Nat.b2n]; lia| |exact Hr|].
  - apply NoDup_akeys_aremove, Hnd.
  - intros k' Hk'. destruct (Hall k' (or_intror Hk')) as [v' [Hl' Hp']]. exists v'. split; [|exact Hp'].
    rewrite alookup_aremove_neq; [exact Hl'|]. intros ->. contradiction.
Qed.

Section Time.
  Variable sampler : N -> list span -> bool.
  Variable dry : bool.
  Notation decide_one := (decide_one sampler dry).
  Notation decide_list := (decide_list sampler dry).
  Notation step_tick := (step_tick sampler dry).
  Notation step_eject := (step_eject sampler dry).
  Notation step := (step sampler dry).
  Notation run := (run sampler dry).

  (* deadline candidates from the arrivals of a trace that already holds k spans *)
  Fixpoint cands (c : cfg) (k : nat) (l : list (Z * span)) : list Z :=
    match l with
    | [] => []
    | (now, s) :: r =>
        (if over_limit c (Z.of_nat (S k)) then [now]
         else if s_root s then [now + eff_sd c] else []) ++ cands c (S k) r
    end.
  Definition arrive (c : cfg) (tr : trace) (a : Z * span) : trace := add_span c (fst a) tr (snd a).

  Lemma min_if (a b : Z) : (if b <? a then b else a) = Z.min a b.
  Proof. destruct (Z.ltb_spec b a); lia. Qed.

  Lemma add_span_sendby c now tr s :
    t_sendby (add_span c now tr s) =
    fold_left Z.min (cands c (length (t_spans tr)) [(now, s)]) (t_sendby tr).
  Proof.
    unfold add_span. cbn [t_sendby cands app].
    destruct (over_limit c _); cbn [app fold_left].
    - rewrite orb_true_r, Z.add_0_r. apply min_if.
    - rewrite orb_false_r. destruct (s_root s); [apply min_if|reflexivity].
  Qed.

  Lemma sendby_fold c l : forall tr,
    t_sendby (fold_left (arrive c) l tr) = fold_left Z.min (cands c (length (t_spans tr)) l) (t_sendby tr).
  Proof.
    induction l as [|[now s] r IH]; intros tr; [reflexivity|].
    cbn [fold_left]. rewrite IH. unfold arrive at 2. cbn [fst snd]. rewrite add_span_sendby, <- fold_left_app.
    cbn [cands]. rewrite app_nil_r. reflexivity.
  Qed.

  Lemma fold_min_le l : forall d, fold_left Z.min l d <= d.
  Proof. induction l as [|x r IH]; intros d; cbn; [lia|]. specialize (IH (Z.min d x)). lia. Qed.
  Lemma fold_min_in l : forall d, fold_left Z.min l d = d \/ In (fold_left Z.min l d) l.
  Proof.
    induction l as [|x r IH]; intros d; cbn [fold_left In]; [left; reflexivity|].
    destruct (IH (Z.min d x)) as [H|H]; [|right; right; exact H].
    rewrite H. destruct (Z.min_spec d x) as [[_ E]|[_ E]]; rewrite E; [left; reflexivity|right; left; reflexivity].
  Qed.

  Theorem sendby_never_raised c now tr s : t_sendby (add_span c now tr s) <= t_sendby tr.
  Proof. rewrite add_span_sendby. apply fold_min_le. Qed.

  (* The configuration does not change on the way, so every verdict and every batch of forwarded
     spans is the one [decide_one] gives in the initial state. *)
  Lemma decide_list_eq rf l : forall w,
    decide_list w rf l =
    ({| w_buf := remove_all (map fst l) (w_buf w);
        w_dec := fold_left (fun d kv => aset (fst kv) (sampler (c_ver (w_cfg w)) (rev (t_spans (snd kv)))) d) l (w_dec w);
        w_cfg := w_cfg w |},
     flat_map (fun kv => snd (decide_one w (rf (snd kv)) (fst kv) (snd kv))) l).
  Proof.
    induction l as [|[t tr] r IH]; intros w; cbn [Collector.decide_list]; [destruct w; reflexivity|].
    unfold Collector.decide_one at 1. rewrite IH. reflexivity.
  Qed.

  Lemma in_decide_one w r0 t0 tr t s r :
    In (t, s, r) (snd (decide_one w r0 t0 tr)) <->
    t = t0 /\ r = r0 /\ In s (sids tr) /\ sampler (c_ver (w_cfg w)) (rev (t_spans tr)) || dry = true.
  Proof.
    unfold Collector.decide_one, fw, sids. cbn [snd].
    destruct (_ || dry); [|cbn [In]; intuition discriminate].
    rewrite !in_map_iff. split.
    - intros [sp [[= <- <- <-] Hsp]]. apply in_rev in Hsp. eauto 6.
    - intros [-> [-> [[sp [<- Hsp]] _]]]. exists sp. split; [reflexivity|]. apply in_rev in Hsp. exact Hsp.
  Qed.

  Lemma decide_list_events rf l w t s r :
    In (t, s, r) (snd (decide_list w rf l)) <->
    exists tr, In (t, tr) l /\ r = rf tr /\ In s (sids tr) /\
               sampler (c_ver (w_cfg w)) (rev (t_spans tr)) || dry = true.
  Proof.
    rewrite decide_list_eq. cbn [snd]. rewrite in_flat_map. split.
    - intros [[t0 tr] [Hl He]]. apply in_decide_one in He. destruct He as [-> He]. exists tr. tauto.
    - intros [tr [Hl He]]. exists (t, tr). split; [exact Hl|]. apply in_decide_one. tauto.
  Qed.

  (* what TakeExpiredTraces returns, for every way the queue may break ties *)
  Lemma take_loop_spec ch : forall buf now max taken l,
    take_loop buf now max taken ch = Some l ->
    map fst l = ch /\ NoDup ch /\
    (forall t tr, In (t, tr) l ->
       alookup t buf = Some tr /\ t_sendby tr <= now /\
       forall kv, In kv (remove_all ch buf) -> t_sendby tr <= t_sendby (snd kv)) /\
    (0 < max -> taken <= max -> taken + Z.of_nat (length ch) <= max) /\
    (0 < max <= taken + Z.of_nat (length ch) \/ forall kv, In kv (remove_all ch buf) -> now < t_sendby (snd kv)).
  Proof.
    induction ch as [|t rest IH]; intros buf now max taken l T.
    - apply take_loop_nil in T. destruct T as [-> E]. cbn [length]. rewrite Z.add_0_r.
      split; [reflexivity|]. split; [constructor|]. split; [intros ? ? []|]. split; [lia|exact E].
    - apply take_loop_cons in T. destruct T as (tr & l' & -> & L & Hroom & Hmin & Hdue & R).
      destruct (IH _ _ _ _ _ R) as [H1 [Hnd [H2 [H3 H4]]]]. rewrite remove_all_cons. cbn [map fst length].
      split; [f_equal; exact H1|]. split; [|split; [|split]].
      + (* every key of [rest] is still bound after t has been removed *)
        constructor; [|exact Hnd]. rewrite <- H1. intros Hin. apply in_map_iff in Hin.
        destruct Hin as [[t' tr'] [E Hin]]. cbn in E. subst t'.
        destruct (H2 _ _ Hin) as [Ha _]. rewrite alookup_aremove_eq in Ha. discriminate.
      + intros t1 tr1 [[= <- <-]|Hin].
        * split; [exact L|]. split; [exact Hdue|]. intros kv Hkv.
          apply Hmin, (incl_aremove t), (remove_all_incl rest), Hkv.
        * destruct (H2 t1 tr1 Hin) as [Ha Hb]. split; [exact (alookup_aremove_some _ _ _ _ Ha)|exact Hb].
      + intros Hm Ht. specialize (Hroom Hm). specialize (H3 Hm). lia.
      + destruct H4 as [H4|H4]; [left; lia|right; exact H4].
  Qed.

  Lemma step_tick_inv w now ch w' evs :
    step_tick w now ch = Some (w', evs) ->
    exists l, take_loop (w_buf w) now (c_me (w_cfg w)) 0 ch = Some l /\
              w_buf w' = remove_all ch (w_buf w) /\ w_cfg w' = w_cfg w /\
              evs = snd (decide_list w (tick_reason (w_cfg w)) l).
  Proof.
    unfold Collector.step_tick. destruct (take_loop (w_buf w) now (c_me (w_cfg w)) 0 ch) as [l|] eqn:T; [|discriminate].
    intros [= E]. exists l. split; [reflexivity|]. rewrite E. cbn [snd]. rewrite decide_list_eq in E. injection E as <- _.
    rewrite <- (proj1 (take_loop_spec _ _ _ _ _ _ T)). repeat split.
  Qed.

  Lemma tick_nodup w now ch w' evs : step_tick w now ch = Some (w', evs) -> NoDup ch.
  Proof. intros H. destruct (step_tick_inv _ _ _ _ _ H) as [l [T _]]. apply (take_loop_spec _ _ _ _ _ _ T). Qed.

  (* C03: what a tick takes is expired, at most MaxExpiredTraces (0 = unlimited), earliest deadline
     first, and nothing expired is left behind unless that budget is used up: for every tick the code
     can perform *)
  Theorem tick_spec w now ch w' evs :
    step_tick w now ch = Some (w', evs) ->
    w_buf w' = remove_all ch (w_buf w) /\
    (forall t, In t ch -> exists tr, alookup t (w_buf w) = Some tr /\ t_sendby tr <= now /\
                                     forall kv, In kv (w_buf w') -> t_sendby tr <= t_sendby (snd kv)) /\
    (0 < c_me (w_cfg w) -> Z.of_nat (length ch) <= c_me (w_cfg w)) /\
    ((0 < c_me (w_cfg w) /\ c_me (w_cfg w) <= Z.of_nat (length ch)) \/
     forall kv, In kv (w_buf w') -> now < t_sendby (snd kv)).
  Proof.
    intros H. destruct (step_tick_inv _ _ _ _ _ H) as [l [T [Hb _]]]. rewrite Hb.
    destruct (take_loop_spec _ _ _ _ _ _ T) as [H1 [_ [H2 [H3 H4]]]].
    split; [reflexivity|]. split; [|split; [intros Hm; apply (H3 Hm); lia|exact H4]].
    intros t Ht. rewrite <- H1 in Ht. apply in_map_iff in Ht. destruct Ht as [[t' tr] [<- Hin]].
    exists tr. exact (H2 _ _ Hin).
  Qed.

  Lemma tick_leaves w now ch w' evs t tr :
    step_tick w now ch = Some (w', evs) -> alookup t (w_buf w) = Some tr -> ~ In t ch -> In (t, tr) (w_buf w').
  Proof.
    intros H Hl Hnin. rewrite (proj1 (tick_spec _ _ _ _ _ H)).
    apply In_remove_all. split; [apply alookup_In; exact Hl|exact Hnin].
  Qed.

  Lemma ahead_true t d k (trk : trace) :
    k <> t -> t_sendby trk <= d -> (t_sendby trk <=? d) && negb (N.eqb k t) = true.
  Proof. intros Hk Hd. apply andb_true_intro. split; [apply Z.leb_le, Hd|apply negb_true_iff, N.eqb_neq, Hk]. Qed.

  (* A tick that leaves a trace t behind has taken only other traces with deadlines no later than t's,
     each once: a test that all such traces pass is passed by [length ch] fewer traces afterwards. *)
  Lemma tick_takes_ahead w now ch w' evs t tr (p : N * trace -> bool) :
    NoDup (akeys (w_buf w)) -> step_tick w now ch = Some (w', evs) ->
    alookup t (w_buf w) = Some tr -> ~ In t ch ->
    (forall k trk, k <> t -> t_sendby trk <= t_sendby tr -> p (k, trk) = true) ->
    (length (filter p (w_buf w')) + length ch = length (filter p (w_buf w)))%nat.
  Proof.
    intros Hnd H Hl Hnin Hp. destruct (tick_spec _ _ _ _ _ H) as [Hb [Htaken _]].
    pose proof (tick_leaves _ _ _ _ _ _ _ H Hl Hnin) as Hrem.
    rewrite Hb. apply length_filter_remove_all; [exact Hnd|exact (tick_nodup _ _ _ _ _ H)|].
    intros k Hk. destruct (Htaken k Hk) as [trk [Ha [_ Hle]]]. exists trk. split; [exact Ha|].
    apply Hp; [intros ->; contradiction|exact (Hle _ Hrem)].
  Qed.

  (* C03: a trace past its deadline is decided by the next tick unless MaxExpiredTraces other traces
     with deadlines no later than its own are ahead of it *)
  Theorem tick_decides_due w now ch w' evs t tr :
    NoDup (akeys (w_buf w)) ->
    step_tick w now ch = Some (w', evs) ->
    alookup t (w_buf w) = Some tr -> t_sendby tr <= now ->
    (c_me (w_cfg w) <= 0 \/
     Z.of_nat (length (filter (fun kv => (t_sendby (snd kv) <=? t_sendby tr) && negb (N.eqb (fst kv) t)) (w_buf w)))
       < c_me (w_cfg w)) ->
    In t ch.
  Proof.
    intros Hnd H Hl Hdue Hahead. destruct (in_dec N.eq_dec t ch) as [Hin|Hnin]; [exact Hin|exfalso].
    set (p := fun kv : N * trace => (t_sendby (snd kv) <=? t_sendby tr) && negb (N.eqb (fst kv) t)) in Hahead.
    pose proof (tick_takes_ahead _ _ _ _ _ t tr p Hnd H Hl Hnin (ahead_true t (t_sendby tr))) as Hcount.
    (* the budget was used up: the c_me traces of ch were all ahead of t (Hcount), and fewer than that are *)
    destruct (tick_spec _ _ _ _ _ H) as [_ [_ [_ [[Hm Hfull]|Hnone]]]]; [lia|].
    (* t is still buffered after the tick, so it had not expired *)
    specialize (Hnone _ (tick_leaves _ _ _ _ _ _ _ H Hl Hnin)). cbn [snd] in Hnone. lia.
  Qed.

  (* C02: a tick after every deadline empties the buffer or takes MaxExpiredTraces traces out of it *)
  Theorem tick_drains w now ch w' evs :
    NoDup (akeys (w_buf w)) ->
    step_tick w now ch = Some (w', evs) ->
    (forall kv, In kv (w_buf w) -> t_sendby (snd kv) <= now) ->
    w_buf w' = [] \/ (0 < c_me (w_cfg w) /\ Z.of_nat (length (w_buf w')) = Z.of_nat (length (w_buf w)) - c_me (w_cfg w)).
  Proof.
    intros Hnd H Hall. destruct (tick_spec _ _ _ _ _ H) as [Hb [Htaken [Hmax Hstop]]].
    destruct Hstop as [[Hm Hfull]|Hnone].
    - right. split; [exact Hm|]. specialize (Hmax Hm).
      (* the filter that keeps everything counts the buffer *)
      assert (Hcount : (length (filter (fun _ => true) (w_buf w')) + length ch
                        = length (filter (fun _ => true) (w_buf w)))%nat).
      { rewrite Hb. apply length_filter_remove_all; [exact Hnd|exact (tick_nodup _ _ _ _ _ H)|].
        intros k Hk. destruct (Htaken k Hk) as [tr [Ha _]]. eauto. }
      rewrite !filter_true in Hcount. lia.
    - left. apply incl_l_nil. intros kv Hin. pose proof (Hnone _ Hin) as Hlt.
      rewrite Hb in Hin. apply In_remove_all in Hin. specialize (Hall _ (proj1 Hin)). lia.
  Qed.

  Definition sum_sizes (l : list (N * trace)) : Z := fold_right (fun kv acc => data_size (snd kv) + acc) 0 l.

  Lemma sum_sizes_cons t tr l : sum_sizes ((t, tr) :: l) = data_size tr + sum_sizes l.
  Proof. reflexivity. Qed.

  (* sendTracesEarly's loop, entered with [total] bytes already released *)
  Lemma eject_loop_spec ch : forall buf tt bytes total l,
    eject_loop buf tt bytes total ch = Some l ->
    map fst l = ch /\
    (forall t tr, In (t, tr) l -> alookup t buf = Some tr /\
        forall kv, In kv (remove_all ch buf) -> trace_impact tt (snd kv) <= trace_impact tt tr) /\
    (remove_all ch buf = [] \/ bytes < total + sum_sizes l) /\
    (total <= bytes -> l = [] \/ total + sum_sizes (removelast l) <= bytes) /\
    (buf <> [] -> l <> []).
  Proof.
    induction ch as [|t rest IH]; intros buf tt bytes total l T.
    - apply eject_loop_nil in T. destruct T as [-> ->].
      split; [reflexivity|]. split; [intros ? ? []|]. split; [left; reflexivity|]. split; [left; reflexivity|congruence].
    - apply eject_loop_cons in T. destruct T as (tr & L & Hmax & T). rewrite remove_all_cons.
      assert (Hmax' : forall kv, In kv (remove_all rest (aremove t buf)) -> trace_impact tt (snd kv) <= trace_impact tt tr).
      { intros kv Hkv. apply Hmax, (incl_aremove t), (remove_all_incl rest), Hkv. }
      destruct T as [(B & -> & ->)|(B & l' & -> & R)]; cbn [map fst]; rewrite sum_sizes_cons.
      + cbn [removelast sum_sizes fold_right].
        split; [reflexivity|]. split; [|split; [right; lia|split; [right; lia|congruence]]].
        intros t1 tr1 [[= <- <-]|[]]. split; [exact L|exact Hmax'].
      + destruct (IH _ _ _ _ _ R) as [H1 [H2 [H3 [H4 H5]]]].
        split; [f_equal; exact H1|]. split; [|split; [|split; [|congruence]]].
        * intros t1 tr1 [[= <- <-]|Hin]; [split; [exact L|exact Hmax']|].
          destruct (H2 t1 tr1 Hin) as [Ha Hb]. split; [exact (alookup_aremove_some _ _ _ _ Ha)|exact Hb].
        * destruct H3 as [H3|H3]; [left; exact H3|right; lia].
        * (* the last ejected trace is the last of l' unless l' is empty *)
          intros Ht. right. destruct l' as [|x l'']; [cbn; lia|]. destruct (H4 B) as [[=]|H4'].
          change (removelast ((t, tr) :: x :: l'')) with ((t, tr) :: removelast (x :: l'')).
          rewrite sum_sizes_cons. lia.
  Qed.

  Lemma step_eject_inv w bytes ch w' evs :
    step_eject w bytes ch = Some (w', evs) ->
    exists l, eject_loop (w_buf w) (eject_tt (w_cfg w)) bytes 0 ch = Some l /\
              w_buf w' = remove_all ch (w_buf w) /\ w_cfg w' = w_cfg w /\
              evs = snd (decide_list w (fun _ => R_eject) l).
  Proof.
    unfold Collector.step_eject.
    destruct (eject_loop (w_buf w) (eject_tt (w_cfg w)) bytes 0 ch) as [l|] eqn:T; [|discriminate].
    intros [= E]. exists l. split; [reflexivity|]. rewrite E. cbn [snd]. rewrite decide_list_eq in E. injection E as <- _.
    rewrite <- (proj1 (eject_loop_spec _ _ _ _ _ _ T)). repeat split.
  Qed.

  (* C07: the ejected traces are the heaviest ones, the loop stops as soon as the released DataSize
     exceeds the share (not before, unless the buffer is empty), every ejected trace leaves the
     buffer, the others are untouched, and a non-empty buffer always gives up at least one trace *)
  Theorem eject_spec w bytes ch w' evs :
    step_eject w bytes ch = Some (w', evs) ->
    exists l, map fst l = ch /\
    w_buf w' = remove_all ch (w_buf w) /\
    (forall t tr, In (t, tr) l -> alookup t (w_buf w) = Some tr /\
        forall kv, In kv (w_buf w') ->
          trace_impact (eject_tt (w_cfg w)) (snd kv) <= trace_impact (eject_tt (w_cfg w)) tr) /\
    (w_buf w' = [] \/ bytes < sum_sizes l) /\
    (0 <= bytes -> l = [] \/ sum_sizes (removelast l) <= bytes) /\
    (w_buf w <> [] -> ch <> []) /\
    (forall t, ~ In t ch -> alookup t (w_buf w') = alookup t (w_buf w)).
  Proof.
    intros H. destruct (step_eject_inv _ _ _ _ _ H) as [l [T [Hb _]]]. rewrite Hb.
    destruct (eject_loop_spec _ _ _ _ _ _ T) as [H1 [H2 [H3 [H4 H5]]]].
    exists l. split; [exact H1|]. split; [reflexivity|]. split; [exact H2|]. split; [exact H3|]. split; [exact H4|].
    split; [|intros t Hn; rewrite alookup_remove_all; destruct (in_dec N.eq_dec t ch); [contradiction|reflexivity]].
    intros Hne ->. apply (H5 Hne). destruct l; [reflexivity|discriminate].
  Qed.

  Lemma step_cfg_buf w o w' evs :
    step w o = Some (w', evs) ->
    w_cfg w' = match o with OReload c => c | _ => w_cfg w end /\
    match o with
    | OSpan _ s => w_buf w' = w_buf w \/ exists tr, w_buf w' = aset (s_tid s) tr (w_buf w)
    | OTick _ ch | OEject _ ch => w_buf w' = remove_all ch (w_buf w)
    | OReload _ | OForget _ => w_buf w' = w_buf w
    end.
  Proof.
    destruct o as [now s|now ch|bytes ch|c|t]; cbn [Collector.step]; intros H.
    - injection H as H. unfold step_span in H.
      destruct (alookup (s_tid s) (w_buf w)); [injection H as <- _; split; [reflexivity|right; eexists; reflexivity]|].
      destruct (alookup (s_tid s) (w_dec w)); injection H as <- _; (split; [reflexivity|]);
        [left|right; eexists]; reflexivity.
    - destruct (step_tick_inv _ _ _ _ _ H) as [l [_ [Hb [Hc _]]]]. exact (conj Hc Hb).
    - destruct (step_eject_inv _ _ _ _ _ H) as [l [_ [Hb [Hc _]]]]. exact (conj Hc Hb).
    - injection H as <- _. split; reflexivity.
    - injection H as <- _. split; reflexivity.
  Qed.

  Lemma step_nodup w o w' evs : NoDup (akeys (w_buf w)) -> step w o = Some (w', evs) -> NoDup (akeys (w_buf w')).
  Proof.
    intros Hnd H. apply step_cfg_buf, proj2 in H.
    destruct o; [destruct H as [H|[tr H]]| | | |]; rewrite H;
      auto using NoDup_akeys_aset, NoDup_remove_all.
  Qed.

  Lemma run_nodup ops : forall w, NoDup (akeys (w_buf w)) -> NoDup (akeys (w_buf (fst (run w ops)))).
  Proof.
    induction ops as [|o r IH]; intros w Hnd; [exact Hnd|]. rewrite run_cons. apply IH.
    unfold Collector.step_total. destruct (step w o) as [[w1 e]|] eqn:S; [|exact Hnd].
    exact (step_nodup _ _ _ _ Hnd S).
  Qed.

  (* C03: a trace leaves the buffer only through a tick at or after its deadline, or through an ejection *)
  Theorem leaves_only_when_due w o w' evs t tr :
    step w o = Some (w', evs) -> alookup t (w_buf w) = Some tr -> alookup t (w_buf w') = None ->
    (exists now ch, o = OTick now ch /\ In t ch /\ t_sendby tr <= now) \/ (exists bytes ch, o = OEject bytes ch /\ In t ch).
  Proof.
    intros H Hl Hn. pose proof (proj2 (step_cfg_buf _ _ _ _ H)) as Hb.
    destruct o as [now s|now ch|bytes ch|c|t0]; [destruct Hb as [Hb|[tr' Hb]]| | | |]; rewrite Hb in Hn.
    - (* OSpan, the span is a late one *) congruence.
    - rewrite alookup_aset in Hn. destruct (N.eqb t (s_tid s)); congruence.
    - left. exists now, ch. rewrite alookup_remove_all in Hn.
      destruct (in_dec N.eq_dec t ch) as [Hin|_]; [|congruence].
      destruct (tick_spec _ _ _ _ _ H) as [_ [Htaken _]]. destruct (Htaken t Hin) as [tr' [Ha [Hdue _]]].
      split; [reflexivity|]. split; [exact Hin|congruence].
    - right. exists bytes, ch. rewrite alookup_remove_all in Hn.
      destruct (in_dec N.eq_dec t ch) as [Hin|_]; [split; [reflexivity|exact Hin]|congruence].
    - congruence.
    - congruence.
  Qed.
End Time.
