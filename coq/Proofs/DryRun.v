(* Dry run (C05) on the forwarding model.  The accounting is by multisets of span ids: each
   non-stress step moves ids between the input, the buffer ([buf_sids]) and the output without losing or
   copying one ([step_sids]), and a history adds these steps up ([dry_all_forwarded]). *)
From Coq Require Import Permutation.
From Refinery Require Import Lib.Base Gen.GenC04 Model.Rates Model.DryRun Proofs.Rates.

(* the marker field of C05, as config.DryRunFieldName has it *)
Lemma dryrun_field_name : dryrun_field = "meta.refinery.dryrun.kept"%string.
Proof. reflexivity. Qed.

Lemma flat_aremove {V B} (f : N * V -> list B) k (m : amap V) :
  NoDup (akeys m) ->
  Permutation (flat_map f m) (match alookup k m with Some v => f (k, v) | None => [] end ++ flat_map f (aremove k m)).
Proof.
  induction m as [|[k' v] r IH]; cbn [alookup aremove akeys map fst flat_map]; intros Hnd; [reflexivity|].
  inversion Hnd as [|? ? Hn Hr]; subst. specialize (IH Hr). destruct (N.eqb_spec k k') as [->|Hne].
  - destruct (alookup k' r) eqn:L; [exfalso; apply Hn, In_akeys_alookup; congruence|].
    apply Permutation_app_head. exact IH.
  - cbn [flat_map]. rewrite IH at 1. apply Permutation_app_swap_app.
Qed.

(* [buffered_sids s] is [buf_sids (buf s)] by definition *)
Definition buf_sids (m : amap trace) : list N := flat_map (fun p => map s_id (t_spans (snd p))) m.

(* up to order only: [aset] moves the trace to the front of the buffer *)
Lemma buf_sids_add sp m : NoDup (akeys m) -> Permutation (buf_sids (add_span sp m)) (buf_sids m ++ [s_id sp]).
Proof.
  intros Hnd. unfold buf_sids. rewrite (flat_aremove _ (s_tid sp) m Hnd). unfold add_span, aset. cbn [flat_map snd].
  destruct (alookup (s_tid sp) m) as [tr|]; cbn [t_spans snd].
  - rewrite map_app, <- !app_assoc. apply Permutation_app_head, Permutation_app_comm.
  - apply Permutation_cons_append.
Qed.

Lemma all_sids_cons o outs : all_sids (o :: outs) = map o_sid o ++ all_sids outs.
Proof. reflexivity. Qed.

Lemma span_ids_cons o r : span_ids (o :: r) = match o with Span sp => [s_id sp] | _ => [] end ++ span_ids r.
Proof. destruct o; reflexivity. Qed.

Section Oracles.
Variable dec : N -> N * bool * string.
Variable sdec : N -> N * bool * string.
Notation step := (step dec sdec).
Notation run := (run dec sdec).

(* 2nd clause: [buf_tids], written out.  3rd and 4th (the 4th is a [kept_rates], written out): without stress
   relief the decision store mirrors the trace sampler. *)
Definition inv5 (s : st) : Prop :=
  NoDup (akeys (buf s)) /\
  (forall tid tr, In (tid, tr) (buf s) -> Forall (fun sp => s_tid sp = tid) (t_spans tr)) /\
  (forall tid, In tid (dropped s) -> d_keep (dec tid) = false) /\
  (forall tid r, alookup tid (kept s) = Some r -> d_keep (dec tid) = true).

(* The invariant does not depend on DryRun being on: the theorems below apply from any state reached by a
   history without stress relief in which DryRun was off, then switched on by a reload. *)
Theorem step_inv5 s o : inv5 s -> is_stress o = false -> inv5 (fst (step s o)).
Proof.
  intros (Hnd & Hb & Hd & Hk) Hns. split; [|split; [|split]].
  - apply (step_buf dec sdec (fun b => NoDup (akeys b))); [constructor| |exact Hnd].
    intros sp. apply NoDup_akeys_aset, Hnd.
  - exact (step_buf_tids dec sdec s o Hb).
  - destruct o as [sp|sp| |c]; [rewrite step_Span|discriminate|rewrite step_Decide|exact Hd].
    + destruct (alookup (s_tid sp) (buf s)); [exact Hd|]. destruct (snd (check_span s sp)); exact Hd.
    + apply (decide_all_invariant dec (fun s' => forall tid, In tid (dropped s') -> d_keep (dec tid) = false));
        [|exact Hd].
      intros s' tid tr Hd' t. rewrite decide_one_eq. destruct (d_keep (dec tid)) eqn:E; [apply Hd'|].
      intros [<-|H]; [exact E|exact (Hd' _ H)].
  - apply (step_kept dec sdec (fun tid _ => d_keep (dec tid) = true)); [auto| |exact Hk].
    intros sp ->. discriminate.
Qed.

Lemma step_dry_history s o :
  inv5 s /\ c_dry (cf s) = true -> keeps_dry o && negb (is_stress o) = true ->
  inv5 (fst (step s o)) /\ c_dry (cf (fst (step s o))) = true.
Proof.
  intros [Hinv Hdry] Ho. apply andb_true_iff in Ho. destruct Ho as [Hkd Hns]. apply negb_true_iff in Hns.
  split; [exact (step_inv5 s o Hinv Hns)|]. rewrite (proj1 (step_cfg dec sdec s o)). destruct o; assumption.
Qed.

Definition dry_ok (x : out) (sp : span) (keep : bool) : Prop :=
  o_sid x = s_id sp /\ o_dry x = Some keep /\ maxone (o_rate x) = maxone (s_rate sp) /\ o_final x = 0.

Lemma fwd_ontime_dry s R keep reason tr sp :
  c_dry (cf s) = true -> dry_ok (fwd_ontime s R keep reason tr sp) sp keep.
Proof.
  intros Hdry. unfold fwd_ontime. rewrite Hdry, merge_dry.
  destruct (root_counts _ _ _ _ _ _) as [[[sc ec] sev] lk]. repeat split. apply maxone_idem.
Qed.

(* a late span is sent on whatever the decision on record, and that is the sampler's *)
Lemma late_dry s sp :
  inv5 s -> c_dry (cf s) = true -> snd (check_span s sp) <> FNone ->
  exists x, fwd_late s sp (snd (check_span s sp)) = [x] /\ dry_ok x sp (d_keep (dec (s_tid sp))).
Proof.
  intros (_ & _ & Hd & Hk) Hdry. rewrite check_span_found. unfold fwd_late. rewrite Hdry.
  destruct (mem_N (s_tid sp) (dropped s)) eqn:Hm.
  - intros _. rewrite (Hd _ (proj1 (mem_N_In _ _) Hm)). eexists. split; [reflexivity|]. repeat split.
  - destruct (alookup (s_tid sp) (kept s)) as [r|] eqn:L; [intros _|contradiction].
    rewrite (Hk _ _ L), merge_dry. destruct (root_counts _ _ _ _ _ _) as [[[sc ec] sev] lk].
    eexists. split; [reflexivity|]. repeat split. apply maxone_idem.
Qed.

Lemma late_sids s sp :
  inv5 s -> c_dry (cf s) = true -> snd (check_span s sp) <> FNone ->
  map o_sid (fwd_late s sp (snd (check_span s sp))) = [s_id sp].
Proof. intros Hinv Hdry Hf. destruct (late_dry s sp Hinv Hdry Hf) as (y & -> & <- & _). reflexivity. Qed.

(* every span forwarded in dry run, stress relief aside, carries the would-be decision and the client's rate *)
Theorem dry_marker_and_rate s o x :
  inv5 s -> c_dry (cf s) = true -> is_stress o = false -> In x (snd (step s o)) ->
  exists sp, source s o sp /\ dry_ok x sp (d_keep (dec (s_tid sp))).
Proof.
  intros Hinv Hdry Hns Hin. destruct o as [sp|sp| |c]; [|discriminate| |destruct Hin].
  - exists sp. split; [reflexivity|]. apply late_outs in Hin.
    destruct (late_dry s sp Hinv Hdry) as (y & E & Hy); [intros E; rewrite E in Hin; destruct Hin|].
    rewrite E in Hin. destruct Hin as [<-|[]]. exact Hy.
  - destruct (decide_outs dec sdec s x Hin) as (tid & tr & sp & Hl & Hsp & _ & ->).
    pose proof (buf_tids_In _ _ _ _ (proj1 (proj2 Hinv)) Hl Hsp) as Htid. exists sp. split; [exists tid, tr; auto|].
    rewrite Htid. apply fwd_ontime_dry, Hdry.
Qed.

Lemma decide_sids s : c_dry (cf s) = true -> map o_sid (snd (step s Decide)) = buffered_sids s.
Proof.
  intros Hdry. rewrite step_Decide_out. unfold buffered_sids.
  induction (buf s) as [|[tid tr] l IH]; [reflexivity|]. cbn [flat_map fst snd]. rewrite map_app, IH. f_equal.
  rewrite decide_one_eq, Hdry, orb_true_r. cbn [snd]. rewrite map_map. apply map_ext.
  intros sp. exact (proj1 (fwd_ontime_dry _ _ _ _ _ _ Hdry)).
Qed.

Lemma step_sids s o :
  inv5 s -> c_dry (cf s) = true -> is_stress o = false ->
  Permutation (map o_sid (snd (step s o)) ++ buffered_sids (fst (step s o)))
              (buffered_sids s ++ match o with Span sp => [s_id sp] | _ => [] end).
Proof.
  intros Hinv Hdry Hns. pose proof Hinv as [Hnd _]. destruct o as [sp|sp| |c]; [|discriminate| |].
  - pose proof (late_sids s sp Hinv Hdry) as Hlate. rewrite step_Span.
    destruct (alookup (s_tid sp) (buf s)); [exact (buf_sids_add sp _ Hnd)|].
    destruct (snd (check_span s sp)); [exact (buf_sids_add sp _ Hnd)| |];
      cbn [fst snd]; rewrite Hlate by discriminate; apply Permutation_cons_append.
  - rewrite (decide_sids s Hdry), step_Decide. unfold buffered_sids at 1. cbn [fst buf set_buf flat_map].
    rewrite !app_nil_r. reflexivity.
  - cbn. rewrite app_nil_r. reflexivity.
Qed.

(* C05, global form: in a history that stays in dry run (stress relief aside), every span handed to
   processSpan is forwarded exactly once or is still buffered *)
Theorem dry_all_forwarded ops : forall s,
  inv5 s -> c_dry (cf s) = true -> dry_history ops = true ->
  Permutation (all_sids (snd (run s ops)) ++ buffered_sids (fst (run s ops))) (buffered_sids s ++ span_ids ops).
Proof.
  induction ops as [|o r IH]; intros s Hinv Hdry Hh.
  - cbn. rewrite app_nil_r. reflexivity.
  - cbn [dry_history forallb] in Hh. apply andb_true_iff in Hh. destruct Hh as [Ho Hr].
    destruct (step_dry_history s o (conj Hinv Hdry) Ho) as [Hinv1 Hdry1].
    apply andb_true_iff in Ho. destruct Ho as [_ Hns]. apply negb_true_iff in Hns.
    rewrite run_cons. cbn [fst snd]. rewrite all_sids_cons, span_ids_cons.
    rewrite <- app_assoc, (IH _ Hinv1 Hdry1 Hr), app_assoc, (step_sids s o Hinv Hdry Hns), <- app_assoc. reflexivity.
Qed.

Theorem stress_ignores_dry_run s sp :
  buf (fst (step s (Stress sp))) = buf s /\
  (forall x, In x (snd (step s (Stress sp))) -> o_sid x = s_id sp /\ o_dry x = None /\ o_stressed x = true) /\
  (snd (step s (Stress sp)) = [] <->
     mem_N (s_tid sp) (dropped s) = true \/
     (alookup (s_tid sp) (kept s) = None /\ d_keep (sdec (s_tid sp)) = false)).
Proof.
  split; [|split].
  - rewrite step_Stress. destruct (snd (check_span s sp)); [destruct (d_keep (sdec (s_tid sp)))| |]; reflexivity.
  - intros x Hin. destruct (stress_outs dec sdec s sp x Hin) as (R & reason & ->).
    unfold fwd_stress. destruct (merge _ _ _) as [[[sr fin] orig] dr]. repeat split.
  - rewrite step_Stress, check_span_found. destruct (mem_N (s_tid sp) (dropped s)); [split; auto|].
    destruct (alookup (s_tid sp) (kept s)); [split; [discriminate|intros [H|[H _]]; discriminate]|].
    destruct (d_keep (sdec (s_tid sp))); [split; [discriminate|intros [H|[_ H]]; discriminate]|split; auto].
Qed.

End Oracles.
