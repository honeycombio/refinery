(* Proofs about Model/Payload.v: whatever Refinery does to a payload between ingestion and
   transmission (critical-field extraction, memoisation in any order, Set of annotations and
   attributes), the marshalled map carries every non-reserved client field exactly once with its
   value, adds only reserved names and explicitly set keys, and invents nothing. *)
From Refinery Require Import Lib.Base Lib.SMap_route2 Gen.GenC20 Model.Payload.

(* Facts read off the generated tables: they stop compiling when the source changes them. *)
Lemma time_standard_true : time_standard = true.
Proof. vm_compute. reflexivity. Qed.

Lemma table_ok_true : table_ok metadata_fields = true.
Proof. vm_compute. reflexivity. Qed.

Section Canon.
  Variable widen : N -> N.

  (* [value] recurses through the lists of VArr and VMap: the two proofs are fixpoints on the value
     whose inner list inductions call them on elements only. *)
  Fixpoint canon_reenc v : canon widen (reenc true v) = canon widen v.
  Proof.
    destruct v as [| | | n | | | | | | |l|l]; cbn [reenc canon]; try reflexivity.
    - destruct (n <? 128)%N; reflexivity.
    - f_equal. rewrite map_map. induction l as [|x r IH]; cbn [map]; [reflexivity|].
      rewrite canon_reenc, IH. reflexivity.
    - f_equal. rewrite map_map. induction l as [|[k x] r IH]; cbn [map fst snd] in *; [reflexivity|].
      rewrite canon_reenc, IH. reflexivity.
  Qed.

  Fixpoint canon_loosen v : canon widen (loosen widen v) = canon widen (bin2str v).
  Proof.
    destruct v as [| | | | | | | | | |l|l]; cbn [loosen bin2str canon]; try reflexivity.
    - f_equal. rewrite !map_map. induction l as [|x r IH]; cbn [map]; [reflexivity|].
      rewrite canon_loosen, IH. reflexivity.
    - f_equal. rewrite !map_map. induction l as [|[k x] r IH]; cbn [map fst snd] in *; [reflexivity|].
      rewrite canon_loosen, IH. reflexivity.
  Qed.

  Lemma canon_exact v w : canon widen v = w ->
    match w with VNil | VBool _ | VStr _ | VBin _ | VTime _ _ | VExt _ _ => v = w | _ => True end.
  Proof. intros <-. destruct v; cbn [canon]; trivial. Qed.

  Lemma canon_bin_exact v s : canon widen v = VBin s -> v = VBin s.
  Proof. exact (canon_exact v (VBin s)). Qed.
End Canon.

Lemma sdistinct_NoDup l : sdistinct l = true -> NoDup l.
Proof.
  induction l as [|x r IH]; cbn [sdistinct]; [constructor|].
  rewrite andb_true_iff, negb_true_iff, smem_false_notin. intros [H1 H2]. constructor; auto.
Qed.

Lemma table_keys_NoDup : NoDup (skeys metadata_fields).
Proof.
  apply sdistinct_NoDup. pose proof table_ok_true as H. unfold table_ok in H.
  apply andb_true_iff in H. exact (proj2 H).
Qed.

Lemma reserved_shas k : reserved k = shas k metadata_fields.
Proof. reflexivity. Qed.

(* what MarshalMsg writes for the reserved name [k] when the Meta* fields hold [m] *)
Definition emitted (m : fields) (k : string) : option value :=
  match slookup k m with Some v => if meta_emits v then Some v else None | None => None end.

Lemma marshal_meta_cons n t r m :
  marshal_meta ((n, t) :: r) m =
  match emitted m n with Some v => [(n, v)] | None => [] end ++ marshal_meta r m.
Proof.
  unfold marshal_meta, emitted. cbn [flat_map fst].
  destruct (slookup n m) as [v|]; [destruct (meta_emits v)|]; reflexivity.
Qed.

Lemma marshal_meta_skeys tbl m :
  skeys (marshal_meta tbl m) =
  filter (fun k => match emitted m k with Some _ => true | None => false end) (skeys tbl).
Proof.
  induction tbl as [|[n t] r IH]; [reflexivity|].
  rewrite marshal_meta_cons, skeys_app, IH. cbn [skeys map filter fst]. destruct (emitted m n); reflexivity.
Qed.

Lemma marshal_meta_lookup tbl m k :
  slookup k (marshal_meta tbl m) = if shas k tbl then emitted m k else None.
Proof.
  unfold shas. induction tbl as [|[n t] r IH]; [reflexivity|].
  rewrite marshal_meta_cons, slookup_app, IH. cbn [slookup]. destruct (String.eqb_spec k n) as [->|Hne].
  - (* written, or skipped and so is every later entry for [k] *)
    destruct (emitted m n); cbn [slookup]; rewrite ?String.eqb_refl; [reflexivity|].
    destruct (slookup n r); reflexivity.
  - apply String.eqb_neq in Hne. destruct (emitted m n); cbn [slookup]; rewrite ?Hne; reflexivity.
Qed.

Definition memo_part (p : payload) : fields :=
  map (fun kv => (fst kv, reenc time_standard (snd kv))) (filter (fun kv => negb (reserved (fst kv))) (p_memo p)).
Definition raw_part (p : payload) : fields :=
  filter (fun kv => negb (shas (fst kv) (p_memo p)) && negb (reserved (fst kv))) (p_raw p).

Lemma marshal_split p : marshal p = marshal_meta metadata_fields (p_meta p) ++ memo_part p ++ raw_part p.
Proof. reflexivity. Qed.

Lemma memo_part_lookup p k :
  slookup k (memo_part p) = if reserved k then None else option_map (reenc time_standard) (slookup k (p_memo p)).
Proof.
  unfold memo_part. rewrite slookup_map_val.
  rewrite (slookup_filter_key (fun k => negb (reserved k))).
  destruct (reserved k); reflexivity.
Qed.

Lemma raw_part_lookup p k :
  slookup k (raw_part p) = if negb (shas k (p_memo p)) && negb (reserved k) then slookup k (p_raw p) else None.
Proof.
  unfold raw_part. apply (slookup_filter_key (fun k => negb (shas k (p_memo p)) && negb (reserved k))).
Qed.

Lemma marshal_lookup p k :
  slookup k (marshal p) =
  if reserved k then emitted (p_meta p) k
  else match slookup k (p_memo p) with
       | Some v => Some (reenc time_standard v)
       | None => slookup k (p_raw p)
       end.
Proof.
  rewrite marshal_split, !slookup_app, marshal_meta_lookup, <- reserved_shas, memo_part_lookup, raw_part_lookup.
  unfold shas.
  destruct (reserved k).
  - rewrite andb_false_r. destruct (emitted (p_meta p) k); reflexivity.
  - destruct (slookup k (p_memo p)); reflexivity.
Qed.

Lemma marshal_NoDup p :
  NoDup (skeys (p_raw p)) -> NoDup (skeys (p_memo p)) -> NoDup (skeys (marshal p)).
Proof.
  intros Hraw Hmemo. rewrite marshal_split. apply NoDup_skeys_app; [|apply NoDup_skeys_app|].
  - rewrite marshal_meta_skeys. apply NoDup_filter, table_keys_NoDup.
  - unfold memo_part. rewrite skeys_map_val. apply NoDup_skeys_filter, Hmemo.
  - apply NoDup_skeys_filter, Hraw.
  - intros k H. apply In_skeys_slookup in H. rewrite memo_part_lookup in H. rewrite raw_part_lookup.
    unfold shas. destruct (reserved k), (slookup k (p_memo p)); cbn in *; congruence.
  - intros k H. rewrite marshal_meta_skeys in H. apply filter_In, proj1, shas_true in H.
    rewrite <- reserved_shas in H. rewrite slookup_app, memo_part_lookup, raw_part_lookup, H, andb_false_r. reflexivity.
Qed.

Definition same_data (p q : payload) : Prop := p_raw q = p_raw p /\ p_memo q = p_memo p.

Definition meta_only (ks : list string) (p q : payload) : Prop :=
  same_data p q /\ forall m, ~ In m ks -> slookup m (p_meta q) = slookup m (p_meta p).

Lemma same_data_trans p q r : same_data p q -> same_data q r -> same_data p r.
Proof. intros [H1 H2] [H3 H4]. split; congruence. Qed.

Lemma meta_only_refl ks p : meta_only ks p p.
Proof. repeat split. Qed.

Lemma meta_only_sset ks p k w : In k ks -> meta_only ks p (with_meta p (sset k w (p_meta p))).
Proof.
  intros Hk. split; [split; reflexivity|]. intros m Hm. cbn [with_meta p_meta].
  apply slookup_sset_neq. intros ->. exact (Hm Hk).
Qed.

Lemma meta_only_sremove ks p k : In k ks -> meta_only ks p (with_meta p (sremove k (p_meta p))).
Proof.
  intros Hk. split; [split; reflexivity|]. intros m Hm. cbn [with_meta p_meta].
  apply slookup_sremove_neq. intros ->. exact (Hm Hk).
Qed.

Lemma meta_assign_meta_only t k v p : meta_only [k] p (meta_assign t k v p).
Proof. destruct t, v; try apply meta_only_refl; apply meta_only_sset; left; reflexivity. Qed.

Lemma root_false_rm p : p_raw (root_false p) = p_raw p /\ p_memo (root_false p) = p_memo p.
Proof. split; reflexivity. Qed.

Lemma root_default_meta_only p : meta_only [meta_refinery_root] p (root_default p).
Proof.
  unfold root_default. destruct (shas meta_refinery_root (p_meta p)); [apply meta_only_refl|].
  apply meta_only_sset. left. reflexivity.
Qed.

Lemma log_unsets_root_meta_only p : meta_only [meta_refinery_root] p (log_unsets_root p).
Proof.
  unfold log_unsets_root. destruct (String.eqb (meta_str meta_signal_type p) "log"); [|apply meta_only_refl].
  apply meta_only_sremove. left. reflexivity.
Qed.

Lemma add_ua_meta_only ua p : meta_only [meta_incoming_user_agent] p (add_ua ua p).
Proof.
  unfold add_ua. destruct (negb (is_empty_str ua) && _); [|apply meta_only_refl].
  apply meta_only_sset. left. reflexivity.
Qed.

Lemma pset_cases k v p :
  if reserved k then meta_only [k] p (pset k v p) else pset k v p = with_memo p (sset k v (p_memo p)).
Proof.
  unfold pset, reserved, reserved_in, shas. destruct (slookup k metadata_fields) as [t|]; [|reflexivity].
  destruct (mtype_of t); [apply meta_assign_meta_only|apply meta_only_refl].
Qed.

Lemma pset_raw k v p : p_raw (pset k v p) = p_raw p.
Proof. pose proof (pset_cases k v p) as H. destruct (reserved k); [apply H|rewrite H; reflexivity]. Qed.

Lemma pset_memo k v p : p_memo (pset k v p) = if reserved k then p_memo p else sset k v (p_memo p).
Proof. pose proof (pset_cases k v p) as H. destruct (reserved k); [apply H|rewrite H; reflexivity]. Qed.

Lemma pset_memo_other k v p k' : k' <> k -> slookup k' (p_memo (pset k v p)) = slookup k' (p_memo p).
Proof. intros H. rewrite pset_memo. destruct (reserved k); [reflexivity|apply slookup_sset_neq, H]. Qed.

Lemma pset_memo_same k v p : reserved k = false -> slookup k (p_memo (pset k v p)) = Some v.
Proof. intros H. rewrite pset_memo, H. apply slookup_sset_eq. Qed.

Lemma pset_memo_NoDup k v p : NoDup (skeys (p_memo p)) -> NoDup (skeys (p_memo (pset k v p))).
Proof. intros H. rewrite pset_memo. destruct (reserved k); [exact H|apply NoDup_skeys_sset, H]. Qed.

Lemma pset_meta_other k v p m : m <> k -> slookup m (p_meta (pset k v p)) = slookup m (p_meta p).
Proof.
  intros Hm. pose proof (pset_cases k v p) as H. destruct (reserved k); [|rewrite H; reflexivity].
  apply H. intros [E|[]]. exact (Hm (eq_sym E)).
Qed.

(* all that the invariant below and the probe argument of Proofs/Route.v need of one extraction step *)
Lemma extract_step_cases c keys p n k v p' n' :
  extract_step c keys (p, n) (k, v) = Some (p', n') ->
  p' = pset k v p \/ meta_only [k; meta_trace_id; meta_refinery_root] p p'.
Proof.
  unfold extract_step. destruct (if sprefix "meta." k then _ else None) as [t|].
  - destruct (meta_unmarshal t v) as [mv|]; [|discriminate]. intros [= <- <-].
    right. apply meta_only_sset. left. reflexivity.
  - destruct (match v with VStr s => _ | _ => None end) as [q|] eqn:Eid.
    + intros [= <- <-]. right. destruct v; try discriminate.
      destruct (smem k (trace_names c) && _).
      * injection Eid as <-. apply meta_only_sset. right. left. reflexivity.
      * destruct (smem k (parent_names c)); [|discriminate]. injection Eid as <-.
        destruct (is_empty_str s); [apply meta_only_refl|]. apply meta_only_sset. right. right. left. reflexivity.
    + destruct (_ && _ && _); intros [= <- <-]; [left; reflexivity|right; apply meta_only_refl].
Qed.

Lemma extract_memo_step_same c p kv : same_data p (extract_memo_step c p kv).
Proof.
  destruct kv as [k v]. unfold extract_memo_step.
  destruct (slookup k metadata_fields) as [t|].
  - destruct (mtype_of t); [apply meta_assign_meta_only|split; reflexivity].
  - (* every branch left is [p], [root_false p] or [with_meta p _] *)
    destruct (_ && _), (smem k (parent_names c)), v; try destruct (is_empty_str _); split; reflexivity.
Qed.

Lemma extract_memo_same c p : same_data p (extract_memo c p).
Proof.
  assert (H : forall l q, same_data q (fold_left (extract_memo_step c) l q)).
  { induction l as [|kv r IH]; intros q; [split; reflexivity|].
    exact (same_data_trans _ _ _ (extract_memo_step_same c q kv) (IH _)). }
  apply (same_data_trans _ _ _ (proj1 (root_default_meta_only p))).
  apply (same_data_trans _ _ _ (H (p_memo p) _)). apply log_unsets_root_meta_only.
Qed.

Section Inv.
  Variable widen : N -> N.
  Variable fs0 : fields.            (* the client's fields as the path's decoder presents them *)

  (* [S]: the keys explicitly Set so far *)
  Definition INV (S : list string) (p : payload) : Prop :=
    NoDup (skeys (p_raw p)) /\ NoDup (skeys (p_memo p)) /\
    (forall k v, slookup k (p_raw p) = Some v -> slookup k fs0 = Some v) /\
    (forall k v, slookup k (p_memo p) = Some v -> reserved k = false -> ~ In k S ->
        exists v0, slookup k fs0 = Some v0 /\ canon widen v = canon widen v0) /\
    (forall k, reserved k = false -> ~ In k S -> slookup k (p_memo p) = None ->
        slookup k (p_raw p) = slookup k fs0).

  Lemma INV_same S p q : same_data p q -> INV S p -> INV S q.
  Proof. unfold INV. intros [-> ->]. exact (fun H => H). Qed.

  Lemma INV_weaken S S' p : (forall k, In k S -> In k S') -> INV S p -> INV S' p.
  Proof.
    intros Hsub (Hnr & Hnm & Hraw & Hmemo & Hrest). unfold INV. repeat apply conj; eauto.
  Qed.

  (* the two uses of Set: an explicit one, whose key is in [S], and memoisation, whose value is the client's *)
  Lemma INV_pset S p k v : INV S p -> In k S \/ slookup k fs0 = Some v -> INV S (pset k v p).
  Proof.
    intros (Hnr & Hnm & Hraw & Hmemo & Hrest) Hk. unfold INV. rewrite pset_raw. repeat apply conj.
    - exact Hnr.
    - apply pset_memo_NoDup, Hnm.
    - exact Hraw.
    - intros k' v' Hl Hres Hns. destruct (string_dec k' k) as [->|Hne].
      + rewrite pset_memo_same in Hl by exact Hres. injection Hl as <-.
        destruct Hk as [Hk|Hk]; [contradiction|]. exists v. split; [exact Hk|reflexivity].
      + rewrite pset_memo_other in Hl by exact Hne. apply Hmemo; assumption.
    - intros k' Hres Hns Hl. destruct (string_dec k' k) as [->|Hne].
      + rewrite pset_memo_same in Hl by exact Hres. discriminate.
      + rewrite pset_memo_other in Hl by exact Hne. apply Hrest; assumption.
  Qed.

  Lemma INV_raw S p k v : INV S p -> In (k, v) (p_raw p) -> slookup k fs0 = Some v.
  Proof. intros (Hnr & _ & Hraw & _) Hin. apply Hraw, In_slookup_NoDup; assumption. Qed.

  Lemma INV_marshal S p k : INV S p -> reserved k = false -> ~ In k S ->
    option_map (canon widen) (slookup k (marshal p)) = option_map (canon widen) (slookup k fs0).
  Proof.
    intros (_ & _ & _ & Hmemo & Hrest) Hr Hns. rewrite marshal_lookup, Hr, time_standard_true.
    destruct (slookup k (p_memo p)) as [v|] eqn:Em.
    - destruct (Hmemo k v Em Hr Hns) as (v0 & -> & Hc). cbn [option_map]. rewrite canon_reenc, Hc. reflexivity.
    - rewrite (Hrest k Hr Hns Em). reflexivity.
  Qed.

  Lemma extract_loop_inv c keys S l :
    (forall k v, In (k, v) l -> slookup k fs0 = Some v) ->
    forall p n p' n', INV S p -> extract_loop c keys (p, n) l = Some (p', n') -> INV S p'.
  Proof.
    induction l as [|[k v] r IH]; intros Hl p n p' n' HI; cbn [extract_loop].
    - intros [= <- <-]. exact HI.
    - destruct (extract_step c keys (p, n) (k, v)) as [[p1 n1]|] eqn:E; [|discriminate].
      apply IH; [intros k' v' H; apply Hl; right; exact H|].
      destruct (extract_step_cases _ _ _ _ _ _ _ _ E) as [->|[Hd _]].
      + apply INV_pset; [exact HI|]. right. apply Hl. left. reflexivity.
      + exact (INV_same S p p1 Hd HI).
  Qed.

  Lemma extract_inv c keys S p p' : INV S p -> extract c keys (p_raw p) p = Some p' -> INV S p'.
  Proof.
    intros HI. unfold extract.
    destruct (extract_loop c keys (root_default p, 0%nat) (p_raw p)) as [[p1 n1]|] eqn:E; [|discriminate].
    apply extract_loop_inv with (S := S) in E;
      [|intros k v; apply (INV_raw S p); exact HI|exact (INV_same S _ _ (proj1 (root_default_meta_only p)) HI)].
    intros [= <-]. apply (INV_same S (if (n1 <? length keys)%nat then add_missing keys p1 else p1)).
    - apply log_unsets_root_meta_only.
    - apply (INV_same S p1); [|exact E]. destruct (n1 <? length keys)%nat; split; reflexivity.
  Qed.

  Lemma memo_loop_inv tofind S l :
    (forall k v, In (k, v) l -> slookup k fs0 = Some v) ->
    forall p n p' n', INV S p -> memo_loop tofind (p, n) l = (p', n') -> INV S p'.
  Proof.
    induction l as [|[k v] r IH]; intros Hl p n p' n' HI; cbn [memo_loop].
    - intros [= <- <-]. exact HI.
    - specialize (IH (fun k' v' H => Hl k' v' (or_intror H))).
      destruct (n <? length tofind)%nat; [|intros [= <- <-]; exact HI].
      destruct (smem k tofind); [|apply IH; exact HI].
      apply IH, INV_pset; [exact HI|]. right. apply Hl. left. reflexivity.
  Qed.

  Lemma memoize_inv keys S p : INV S p -> INV S (memoize keys p).
  Proof.
    intros HI. unfold memoize. destruct (sdedup _) as [|x tf]; [exact HI|].
    destruct (memo_loop (x :: tf) (p, 0%nat) (p_raw p)) as [p1 n1] eqn:El.
    apply memo_loop_inv with (S := S) in El; [|intros k v; apply (INV_raw S p); exact HI|exact HI].
    apply (INV_same S p1); [split; reflexivity|exact El].
  Qed.

  Lemma apply_op_inv S p o :
    INV S p -> INV (match o with OSet k _ => k :: S | OMemoize _ => S end) (apply_op p o).
  Proof.
    intros HI. destruct o as [ks|k v]; cbn [apply_op]; [apply memoize_inv; exact HI|].
    apply INV_pset; [|left; left; reflexivity]. revert HI. apply INV_weaken. intros x Hx. right. exact Hx.
  Qed.

  Lemma ops_inv ops : forall S p, INV S p -> INV (set_keys ops ++ S) (fold_left apply_op ops p).
  Proof.
    induction ops as [|o r IH]; intros S p HI; cbn [fold_left]; [exact HI|].
    apply apply_op_inv with (o := o), IH in HI. revert HI. apply INV_weaken.
    intros x. destruct o; cbn [set_keys]; rewrite !in_app_iff; cbn [In]; tauto.
  Qed.
End Inv.

Lemma sdedup_In k l : In k (sdedup l) <-> In k l.
Proof.
  induction l as [|x r IH]; cbn [sdedup In]; [tauto|].
  destruct (smem x r) eqn:Hx; cbn [In]; rewrite IH; [|tauto].
  apply smem_In in Hx. intuition congruence.
Qed.

(* MemoizeFields looks only for keys that are not memoised yet, so it overwrites nothing *)
Lemma memo_loop_keeps tofind k v l : forall p n,
  ~ In k tofind -> slookup k (p_memo p) = Some v ->
  slookup k (p_memo (fst (memo_loop tofind (p, n) l))) = Some v.
Proof.
  induction l as [|[k' v'] r IH]; intros p n Hk Hl; cbn [memo_loop]; [exact Hl|].
  destruct (n <? length tofind)%nat; [|exact Hl].
  destruct (smem k' tofind) eqn:Hm; [|apply IH; assumption]. apply smem_In in Hm.
  apply IH; [exact Hk|]. rewrite pset_memo_other; [exact Hl|]. intros ->. exact (Hk Hm).
Qed.

Lemma memoize_keeps keys k v p :
  slookup k (p_memo p) = Some v -> slookup k (p_memo (memoize keys p)) = Some v.
Proof.
  intros Hl. unfold memoize. set (tf := sdedup _).
  assert (Hk : ~ In k tf).
  { subst tf. rewrite sdedup_In, filter_In. unfold shas. rewrite Hl, andb_false_r. intros [_ H]. discriminate H. }
  destruct tf as [|x r]; [exact Hl|].
  pose proof (memo_loop_keeps (x :: r) k v (p_raw p) p 0%nat Hk Hl) as H.
  destruct (memo_loop (x :: r) (p, 0%nat) (p_raw p)) as [p1 n1]. exact H.
Qed.

Lemma last_set_app k a b :
  last_set k (a ++ b) = match last_set k b with Some w => Some w | None => last_set k a end.
Proof.
  induction a as [|[ks|k' v] r IH]; cbn [app last_set]; [destruct (last_set k b); reflexivity|exact IH|].
  rewrite IH. destruct (last_set k b); reflexivity.
Qed.

Lemma ops_last_set k ops p : reserved k = false -> forall v,
  last_set k ops = Some v -> slookup k (p_memo (fold_left apply_op ops p)) = Some v.
Proof.
  intros Hr. induction ops as [|o r IH] using rev_ind; intros v; [discriminate|].
  rewrite last_set_app, fold_left_app. destruct o as [ks|k' v']; cbn [last_set fold_left apply_op].
  - intros H. apply memoize_keeps, IH, H.
  - destruct (String.eqb_spec k k') as [<-|Hne].
    + intros [= ->]. apply pset_memo_same, Hr.
    + intros H. rewrite pset_memo_other by exact Hne. apply IH, H.
Qed.

(* arrive exactly as sent on every path: not numbers (width may change), not bin (str on the loose path) *)
Definition kept_exactly (v : value) : bool :=
  match v with VNil | VBool _ | VStr _ | VTime _ _ | VExt _ _ => true | _ => false end.

(* what [v] is to arrive as on path [pa], up to [canon]: bin becomes str on the loose msgpack /1/events path *)
Definition path_spec (pa : path) (v : value) : value :=
  match pa with PEventMsgp => bin2str v | _ => v end.

Section Main.
  Variable widen : N -> N.

  Lemma path_fields_lookup pa fs k :
    slookup k (path_fields widen pa fs) = option_map (path_value widen pa) (slookup k fs).
  Proof. unfold path_fields. apply slookup_map_val. Qed.

  Lemma path_fields_skeys pa fs : skeys (path_fields widen pa fs) = skeys fs.
  Proof. unfold path_fields. apply skeys_map_val. Qed.

  Lemma canon_path_value pa v : canon widen (path_value widen pa v) = canon widen (path_spec pa v).
  Proof. destruct pa; cbn [path_value path_spec]; try reflexivity. apply canon_loosen. Qed.

  Lemma path_fields_id pa fs : pa <> PEventMsgp -> path_fields widen pa fs = fs.
  Proof.
    intros Hp. unfold path_fields. rewrite <- (map_id fs) at 2. apply map_ext.
    intros [k v]. destruct pa; cbn [path_value fst snd]; try reflexivity. contradiction.
  Qed.

  Lemma ingest_raw_inv pa c keys ua fs p :
    pa <> PEventMsgp -> NoDup (skeys fs) -> ingest_raw c keys ua fs = Some p ->
    INV widen (path_fields widen pa fs) [] p.
  Proof.
    intros Hp Hnd. rewrite (path_fields_id pa fs Hp). unfold ingest_raw.
    destruct (extract c keys fs _) as [p0|] eqn:E; [|discriminate].
    intros [= <-]. apply (INV_same widen fs [] p0); [apply add_ua_meta_only|].
    apply extract_inv with (widen := widen) (fs0 := fs) (S := []) in E; [exact E|].
    unfold INV; cbn [p_raw p_memo]. repeat apply conj.
    - exact Hnd.
    - constructor.
    - intros k v H. exact H.
    - intros k v H. discriminate.
    - intros k _ _ _. reflexivity.
  Qed.

  Lemma ingest_memo_inv pa c ua fs :
    NoDup (skeys fs) ->
    INV widen (path_fields widen pa fs) []
      (extract_memo c (add_ua ua {| p_raw := []; p_memo := path_fields widen pa fs; p_missing := []; p_meta := [] |})).
  Proof.
    intros Hnd. eapply INV_same; [apply extract_memo_same|]. eapply INV_same; [apply add_ua_meta_only|].
    unfold INV; cbn [p_raw p_memo]. repeat apply conj.
    - constructor.
    - rewrite path_fields_skeys. exact Hnd.
    - intros k v H. discriminate.
    - intros k v H _ _. exists v. split; [exact H|reflexivity].
    - intros k _ _ H. rewrite H. reflexivity.
  Qed.

  Lemma ingest_inv pa c ua fs p :
    NoDup (skeys fs) -> ingest widen pa c ua fs = Some p -> INV widen (path_fields widen pa fs) [] p.
  Proof.
    intros Hnd Hi. unfold ingest in Hi.
    assert (Hne : forall x : option payload, match fs with [] => None | _ => x end = Some p -> x = Some p)
      by (destruct fs; [discriminate|trivial]).
    destruct pa; try apply Hne in Hi.
    - (* PBatchMsgp *) eapply ingest_raw_inv; [discriminate|exact Hnd|exact Hi].
    - (* PBatchJson *) eapply ingest_raw_inv; [discriminate|exact Hnd|exact Hi].
    - (* PEventJson *) injection Hi as <-. exact (ingest_memo_inv _ c ua fs Hnd).
    - (* PEventMsgp *) injection Hi as <-. exact (ingest_memo_inv _ c ua fs Hnd).
    - (* PMetaOnly *) eapply ingest_raw_inv; [discriminate|exact Hnd|exact Hi].
  Qed.

  Theorem forward_preserves pa c ua fs ops out :
    NoDup (skeys fs) ->
    forward widen pa c ua fs ops = Some out ->
    NoDup (skeys out) /\
    (* with None on both sides: no such key appears unless the client sent it *)
    (forall k, reserved k = false -> ~ In k (set_keys ops) ->
        option_map (canon widen) (slookup k out) =
        option_map (fun v => canon widen (path_spec pa v)) (slookup k fs)) /\
    (forall k, In k (skeys out) -> reserved k = true \/ In k (skeys fs) \/ In k (set_keys ops)) /\
    (forall k v, reserved k = false -> last_set k ops = Some v ->
        option_map (canon widen) (slookup k out) = Some (canon widen v)).
  Proof.
    intros Hnd. unfold forward. destruct (ingest widen pa c ua fs) as [p|] eqn:Ei; [|discriminate].
    destruct (is_probe p); [discriminate|]. intros [= <-].
    pose proof (ops_inv widen _ ops [] p (ingest_inv pa c ua fs p Hnd Ei)) as HI.
    rewrite app_nil_r in HI. set (q := fold_left apply_op ops p) in *.
    assert (Hcl : forall k, reserved k = false -> ~ In k (set_keys ops) ->
              option_map (canon widen) (slookup k (marshal q)) =
              option_map (fun v => canon widen (path_spec pa v)) (slookup k fs)).
    { intros k Hr Hns. rewrite (INV_marshal widen _ _ q k HI Hr Hns), path_fields_lookup.
      destruct (slookup k fs); cbn [option_map]; [rewrite canon_path_value|]; reflexivity. }
    split; [apply marshal_NoDup; apply HI|]. split; [exact Hcl|]. split.
    - intros k Hin. destruct (reserved k) eqn:Hr; [left; reflexivity|right].
      destruct (in_dec string_dec k (set_keys ops)) as [Hs|Hs]; [right; exact Hs|left].
      pose proof (Hcl k Hr Hs) as H. apply In_skeys_slookup in Hin. apply In_skeys_slookup.
      destruct (slookup k (marshal q)); [|contradiction]. destruct (slookup k fs); discriminate.
    - intros k v Hr Hs. rewrite marshal_lookup, Hr, time_standard_true.
      subst q. rewrite (ops_last_set k ops p Hr v Hs). cbn [option_map]. rewrite canon_reenc. reflexivity.
  Qed.

  Lemma kept_exactly_forwarded pa c ua fs ops out k v :
    kept_exactly v = true ->
    NoDup (skeys fs) -> forward widen pa c ua fs ops = Some out ->
    reserved k = false -> ~ In k (set_keys ops) ->
    slookup k fs = Some v -> slookup k out = Some v.
  Proof.
    intros Hv Hnd Hf Hr Hs Hk. destruct (forward_preserves pa c ua fs ops out Hnd Hf) as (_ & H & _).
    specialize (H k Hr Hs). rewrite Hk in H.
    assert (Hp : canon widen (path_spec pa v) = v) by (destruct v; try discriminate; destruct pa; reflexivity).
    destruct (slookup k out) as [w|]; [|discriminate]. cbn [option_map] in H. rewrite Hp in H.
    injection H as H. apply canon_exact in H. destruct v; try discriminate; rewrite H; reflexivity.
  Qed.

  Corollary timestamps_exact pa c ua fs ops out k s n :
    NoDup (skeys fs) -> forward widen pa c ua fs ops = Some out ->
    reserved k = false -> ~ In k (set_keys ops) ->
    slookup k fs = Some (VTime s n) -> slookup k out = Some (VTime s n).
  Proof. exact (kept_exactly_forwarded pa c ua fs ops out k (VTime s n) eq_refl). Qed.

  Corollary strings_exact pa c ua fs ops out k s :
    NoDup (skeys fs) -> forward widen pa c ua fs ops = Some out ->
    reserved k = false -> ~ In k (set_keys ops) ->
    slookup k fs = Some (VStr s) -> slookup k out = Some (VStr s).
  Proof. exact (kept_exactly_forwarded pa c ua fs ops out k (VStr s) eq_refl). Qed.

  Corollary types_kept_except_loose_path pa c ua fs ops out k :
    pa <> PEventMsgp ->
    NoDup (skeys fs) -> forward widen pa c ua fs ops = Some out ->
    reserved k = false -> ~ In k (set_keys ops) ->
    option_map (canon widen) (slookup k out) = option_map (canon widen) (slookup k fs).
  Proof.
    intros Hp Hnd Hf Hr Hs. destruct (forward_preserves pa c ua fs ops out Hnd Hf) as (_ & H & _).
    rewrite (H k Hr Hs). destruct (slookup k fs) as [w|]; [|reflexivity]. cbn [option_map].
    destruct pa; try reflexivity. contradiction.
  Qed.
End Main.
