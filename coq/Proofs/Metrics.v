(* Metrics store: every cell is a fold of the operations addressed to it; Get reads what was recorded. *)
From Refinery Require Import Lib.Base Model.Metrics.
From Coq Require Import ZifyN ZifyBool Sorting.Permutation.

(* sl is one of the four value maps of the store: counters, gauges, updowns, stores *)
Definition slot_ok (sl : N) : Prop := (sl < 4)%N.

Lemma key_inj sl n sl' n' : slot_ok sl -> slot_ok sl' -> key sl n = key sl' n' -> sl = sl' /\ n = n'.
Proof. unfold slot_ok, key. lia. Qed.

Lemma slot_of_ok k sl : slot_of k = Some sl -> slot_ok sl.
Proof. destruct k; intros [= <-]; cbv [slot_ok s_counter s_gauge s_updown]; lia. Qed.

Lemma target_slot_ok o sl n : target o = Some (sl, n) -> slot_ok sl.
Proof.
  destruct o as [n0 []|n0|n0 c|n0 x|n0|n0|n0 x|n0|n0]; intros [= <- <-];
    cbv [slot_ok s_counter s_gauge s_updown s_store]; lia.
Qed.

Lemma eff_target reset o sl n v : target o = Some (sl, n) -> exists x, eff reset sl n o v = Some x.
Proof.
  destruct o as [n0 []|n0|n0 c|n0 x|n0|n0|n0 x|n0|n0]; intros [= <- <-]; cbn [eff slot_of option_eqb];
    rewrite !N.eqb_refl; cbn [andb]; try destruct reset; try destruct v; eauto.
Qed.

Lemma eff_other reset o sl n v : target o <> Some (sl, n) -> eff reset sl n o v = v.
Proof.
  (* every guard in eff is: same name and same slot as the target *)
  intros H. destruct o as [n0 k|n0|n0 c|n0 x|n0|n0|n0 x|n0|n0]; cbn [eff target] in *; try reflexivity;
    (destruct (_ && _) eqn:E; [|reflexivity]); apply andb_true_iff in E as [->%N.eqb_eq E]; elim H.
  1: destruct (slot_of k); [|discriminate].
  all: apply N.eqb_eq in E as ->; reflexivity.
Qed.

Lemma eff_keeps reset o sl n v : v <> None -> eff reset sl n o v <> None.
Proof.
  destruct o as [n0 k|n0|n0 c|n0 x|n0|n0|n0 x|n0|n0]; cbn [eff]; try destruct (_ && _); try destruct reset;
    destruct v; congruence.
Qed.

(* reset = false: Register keeps what is there *)
Lemma eff_cur0 o sl n v : target o = Some (sl, n) -> eff false sl n o v = eff false sl n o (Some (cur0 v)).
Proof.
  destruct o as [n0 []|n0|n0 c|n0 x|n0|n0|n0 x|n0|n0]; intros [= <- <-]; cbn [eff slot_of option_eqb];
    rewrite !N.eqb_refl; destruct v; reflexivity.
Qed.

Lemma mstep_cells reset s o :
  cells (fst (mstep reset s o)) =
  match target o with
  | Some (sl, n) => match eff reset sl n o (getc s sl n) with Some v => aset (key sl n) v (cells s) | None => cells s end
  | None => cells s
  end.
Proof. destruct o as [n0 []|n0|n0 c|n0 x|n0|n0|n0 x|n0|n0]; reflexivity. Qed.

Lemma cell_step reset s o sl n :
  slot_ok sl -> getc (fst (mstep reset s o)) sl n = eff reset sl n o (getc s sl n).
Proof.
  intros Hsl. unfold getc at 1. rewrite mstep_cells. destruct (target o) as [[sl' n']|] eqn:Et.
  - destruct (eff_target reset o sl' n' (getc s sl' n') Et) as [x Hx]. rewrite Hx.
    destruct (N.eq_dec (key sl n) (key sl' n')) as [Ek|Ek].
    + apply key_inj in Ek as [-> ->]; [|exact Hsl|exact (target_slot_ok o sl' n' Et)].
      rewrite alookup_aset_eq. symmetry. exact Hx.
    + rewrite alookup_aset_neq by exact Ek. symmetry. apply eff_other. rewrite Et. intros [= <- <-]. apply Ek. reflexivity.
  - symmetry. apply eff_other. rewrite Et. discriminate.
Qed.

Lemma mrun_cons_fst reset s o r : fst (mrun reset s (o :: r)) = fst (mrun reset (fst (mstep reset s o)) r).
Proof.
  cbn [mrun]. destruct (mstep reset s o) as [s1 out]. cbn [fst]. destruct (mrun reset s1 r) as [s2 outs]. reflexivity.
Qed.

Theorem cell_run reset ops : forall s sl n,
  slot_ok sl -> getc (fst (mrun reset s ops)) sl n = fold_left (fun v o => eff reset sl n o v) ops (getc s sl n).
Proof.
  induction ops as [|o r IH]; intros s sl n Hsl; [reflexivity|].
  rewrite mrun_cons_fst, IH by exact Hsl. cbn [fold_left]. rewrite cell_step by exact Hsl. reflexivity.
Qed.

Lemma types_step reset s o n :
  alookup n (types (fst (mstep reset s o))) =
  match o with MReg n0 k => if N.eqb n n0 then Some k else alookup n (types s) | _ => alookup n (types s) end.
Proof.
  destruct o as [n0 k|n0|n0 c|n0 x|n0|n0|n0 x|n0|n0]; cbn [mstep fst types]; try reflexivity.
  destruct (N.eqb_spec n n0) as [->|E]; [apply alookup_aset_eq|apply alookup_aset_neq, E].
Qed.

Definition reg_or_used (name : N) (ops : list mop) : bool := existsb (touches name) ops.

Lemma uses_as_target k name o sl : uses_as k name o = true -> target o = Some (sl, name) -> slot_of k = Some sl.
Proof.
  intros H Ht. destruct o as [n0 []|n0|n0 c|n0 x|n0|n0|n0 x|n0|n0]; try discriminate Ht; injection Ht as <- <-;
    cbn [uses_as] in H; rewrite N.eqb_refl in H; destruct k; try discriminate H; reflexivity.
Qed.

Lemma touches_target k sl name o :
  slot_of k = Some sl -> uses_as k name o = true ->
  if touches name o then target o = Some (sl, name) else target o <> Some (sl, name).
Proof.
  intros Hk Ho. unfold touches. destruct (target o) as [[sl' n]|] eqn:Et; [|discriminate].
  destruct (N.eqb_spec n name) as [->|Hn]; cbn [andb]; [|congruence].
  pose proof (uses_as_target k name o sl' Ho Et) as Hk'. rewrite Hk in Hk'. injection Hk' as <-.
  (* the slot of a kind is not the store slot *)
  destruct k; try discriminate; injection Hk as <-; reflexivity.
Qed.

Lemma other_cells_kept reset k name sl ops v :
  slot_of k <> Some sl -> forallb (uses_as k name) ops = true ->
  fold_left (fun v o => eff reset sl name o v) ops v = v.
Proof.
  intros Hk. induction ops as [|o r IH]; cbn [forallb fold_left]; [reflexivity|]. intros [Ho Hr]%andb_true_iff.
  rewrite eff_other; [exact (IH Hr)|]. intros Ht. exact (Hk (uses_as_target k name o sl Ho Ht)).
Qed.

Lemma types_run reset k name ops : forall s,
  forallb (uses_as k name) ops = true ->
  (alookup name (types s) = None \/ alookup name (types s) = Some k) ->
  (alookup name (types (fst (mrun reset s ops))) = None \/ alookup name (types (fst (mrun reset s ops))) = Some k).
Proof.
  induction ops as [|o r IH]; intros s H Hs; [exact Hs|].
  cbn [forallb] in H. apply andb_true_iff in H. destruct H as [Ho Hr].
  rewrite mrun_cons_fst. apply IH; [exact Hr|]. rewrite types_step.
  destruct o as [n0 k0|n0|n0 c|n0 x|n0|n0|n0 x|n0|n0]; try exact Hs.
  cbn [uses_as] in Ho. rewrite (N.eqb_sym name n0). destruct (N.eqb n0 name); [|exact Hs].
  cbn [negb orb] in Ho. right. destruct k, k0; try discriminate; reflexivity.
Qed.

Lemma registered_cell reset name k sl ops : forall s,
  slot_of k = Some sl -> slot_ok sl ->
  (alookup name (types s) = Some k -> getc s sl name <> None) ->
  forallb (uses_as k name) ops = true ->
  alookup name (types (fst (mrun reset s ops))) = Some k -> getc (fst (mrun reset s ops)) sl name <> None.
Proof.
  intros s Hk Hsl. revert s. induction ops as [|o r IH]; intros s Hs H Ht; [exact (Hs Ht)|].
  cbn [forallb] in H. apply andb_true_iff in H as [_ Hr].
  rewrite mrun_cons_fst in *. apply IH; [|exact Hr|exact Ht].
  rewrite types_step, cell_step by exact Hsl. intros Hty.
  destruct o as [n0 k0|n0|n0 c|n0 x|n0|n0|n0 x|n0|n0]; try exact (eff_keeps _ _ _ _ _ (Hs Hty)).
  destruct (N.eqb_spec name n0) as [<-|_]; [|exact (eff_keeps _ _ _ _ _ (Hs Hty))].
  injection Hty as ->. destruct (eff_target reset (MReg name k) sl name (getc s sl name)) as [x ->]; [|discriminate].
  cbn [target]. rewrite Hk. reflexivity.
Qed.

Lemma mget_own_cell k sl s name :
  slot_of k = Some sl ->
  (forall sl', slot_ok sl' -> sl' <> sl -> getc s sl' name = None) ->
  alookup name (types s) = None \/ alookup name (types s) = Some k ->
  mget s name = getc s sl name.
Proof.
  intros Hk Hn Ht. unfold mget.
  (* of the four rewrites the one for sl itself fails on sl <> sl and is skipped *)
  destruct k; try discriminate; injection Hk as <-;
    rewrite ?(Hn s_store), ?(Hn s_counter), ?(Hn s_gauge), ?(Hn s_updown)
      by (cbv [slot_ok s_store s_counter s_gauge s_updown]; lia);
    destruct Ht as [-> | ->]; try reflexivity; destruct (getc s _ name); reflexivity.
Qed.

Theorem get_cell reset k sl name ops :
  slot_of k = Some sl -> forallb (uses_as k name) ops = true ->
  mget (fst (mrun reset minit ops)) name = fold_left (fun v o => eff reset sl name o v) ops None.
Proof.
  intros Hk H. rewrite (mget_own_cell k sl).
  - apply (cell_run reset ops minit). exact (slot_of_ok k sl Hk).
  - exact Hk.
  - intros sl' Hok Hne. rewrite cell_run by exact Hok. apply (other_cells_kept reset k); [congruence|exact H].
  - apply (types_run reset k name ops minit H). left. reflexivity.
Qed.

Lemma fold_absent k sl name ops :
  slot_of k = Some sl -> forallb (uses_as k name) ops = true ->
  fold_left (fun v o => eff false sl name o v) ops None =
  if reg_or_used name ops then fold_left (fun v o => eff false sl name o v) ops (Some 0) else None.
Proof.
  intros Hk. unfold reg_or_used. induction ops as [|o r IH]; cbn [forallb existsb fold_left]; [reflexivity|].
  intros [Ho Hr]%andb_true_iff. pose proof (touches_target k sl name o Hk Ho) as Ht.
  destruct (touches name o); cbn [orb].
  - rewrite (eff_cur0 o sl name None Ht). reflexivity.
  - rewrite !eff_other by exact Ht. exact (IH Hr).
Qed.

Lemma w64_idem a : w64 (w64 a) = w64 a.
Proof. unfold w64. apply Z.mod_mod. lia. Qed.
Lemma w64_add_l a b : w64 (w64 a + b) = w64 (a + b).
Proof. unfold w64. apply Zplus_mod_idemp_l. Qed.
Lemma w64_add_r a b : w64 (a + w64 b) = w64 (a + b).
Proof. unfold w64. apply Zplus_mod_idemp_r. Qed.

Lemma counter_fold name ops : forall t, w64 t = t ->
  fold_left (fun v o => eff false s_counter name o v) ops (Some t) = Some (w64 (t + csum name ops)).
Proof.
  induction ops as [|o r IH]; intros t Ht; cbn [fold_left csum]; [rewrite Z.add_0_r, Ht; reflexivity|].
  destruct o as [n0 k|n0|n0 c|n0 x|n0|n0|n0 x|n0|n0]; try (rewrite eff_other by discriminate; exact (IH t Ht)); cbn [eff].
  - destruct (_ && _); exact (IH t Ht).
  - destruct (N.eqb n0 name); [|exact (IH t Ht)].
    cbn [andb cur0 N.eqb s_counter]. rewrite IH, w64_add_l, Z.add_assoc by apply w64_idem. reflexivity.
  - destruct (N.eqb n0 name); [|exact (IH t Ht)].
    cbn [andb cur0 N.eqb s_counter]. rewrite w64_add_r, IH, w64_add_l, Z.add_assoc by apply w64_idem. reflexivity.
Qed.

Theorem get_counter name ops :
  forallb (uses_as KCounter name) ops = true ->
  mget (fst (mrun false minit ops)) name =
  if reg_or_used name ops then Some (w64 (csum name ops)) else None.
Proof.
  intros H. rewrite (get_cell false KCounter s_counter), (fold_absent KCounter), counter_fold by (reflexivity || exact H).
  reflexivity.
Qed.

Lemma csum_app name a b : csum name (a ++ b) = csum name a + csum name b.
Proof.
  induction a as [|o r IH]; cbn [app csum]; [reflexivity|].
  destruct o; try exact IH; rewrite IH; lia.
Qed.
Lemma csum_nonneg name ops : forallb (uses_as KCounter name) ops = true -> 0 <= csum name ops.
Proof.
  induction ops as [|o r IH]; cbn [forallb csum]; [lia|]. intros [Ho Hr]%andb_true_iff. specialize (IH Hr).
  destruct o as [n0 k|n0|n0 c|n0 x|n0|n0|n0 x|n0|n0]; try exact IH; cbn [uses_as] in Ho; destruct (N.eqb n0 name); lia.
Qed.
Theorem counter_monotone name a b :
  forallb (uses_as KCounter name) (a ++ b) = true -> csum name a <= csum name (a ++ b).
Proof.
  intros H. rewrite csum_app. rewrite forallb_app in H. apply andb_true_iff in H. destruct H as [_ Hb].
  pose proof (csum_nonneg name b Hb). lia.
Qed.

Lemma lastset_acc sl name ops : forall acc,
  lastset sl name ops acc = match lastset sl name ops None with Some x => Some x | None => acc end.
Proof.
  induction ops as [|o r IH]; intros acc; [reflexivity|].
  destruct o as [| | |n0 x| | |n0 x| |]; cbn [lastset]; try apply IH.
  (* MGaugeSet, MStore: where the guard holds the accumulator is overwritten on both sides *)
  all: destruct (_ && _); [rewrite (IH (Some x)); destruct (lastset sl name r None); reflexivity|apply IH].
Qed.

Lemma lastset_untouched name ops : forall acc, reg_or_used name ops = false -> lastset s_gauge name ops acc = acc.
Proof.
  unfold reg_or_used. induction ops as [|o r IH]; intros acc; cbn [existsb lastset]; [reflexivity|].
  intros [Ho Hr]%orb_false_iff. destruct o as [| | |n0 x| | |n0 x| |]; try exact (IH _ Hr).
  - (* MGaugeSet: it does not touch name, so it sets another gauge *)
    cbn in Ho. rewrite andb_true_r in Ho. rewrite Ho. exact (IH _ Hr).
  - (* MStore: its guard asks for the store slot *)
    rewrite andb_false_r. exact (IH _ Hr).
Qed.

Lemma gauge_fold name ops : forall t,
  fold_left (fun v o => eff false s_gauge name o v) ops (Some t) = lastset s_gauge name ops (Some t).
Proof.
  induction ops as [|o r IH]; intros t; cbn [fold_left lastset]; [reflexivity|].
  destruct o as [n0 k|n0|n0 c|n0 x|n0|n0|n0 x|n0|n0]; try (rewrite eff_other by discriminate; apply IH); cbn [eff].
  (* Register keeps the value; Gauge and Store carry the guard they have in lastset *)
  all: destruct (_ && _); apply IH.
Qed.

Theorem get_gauge name ops :
  forallb (uses_as KGauge name) ops = true ->
  mget (fst (mrun false minit ops)) name =
  match lastset s_gauge name ops None with
  | Some x => Some x
  | None => if reg_or_used name ops then Some 0 else None
  end.
Proof.
  intros H. rewrite (get_cell false KGauge s_gauge), (fold_absent KGauge), gauge_fold by (reflexivity || exact H).
  destruct (reg_or_used name ops) eqn:E; [apply lastset_acc|]. rewrite lastset_untouched by exact E. reflexivity.
Qed.

Lemma updown_fold name ops : forall t,
  fold_left (fun v o => eff false s_updown name o v) ops (Some t) = Some (t + udsum name ops).
Proof.
  induction ops as [|o r IH]; intros t; cbn [fold_left udsum]; [rewrite Z.add_0_r; reflexivity|].
  destruct o as [n0 k|n0|n0 c|n0 x|n0|n0|n0 x|n0|n0]; try (rewrite eff_other by discriminate; apply IH); cbn [eff].
  1: destruct (_ && _); apply IH.
  all: destruct (N.eqb n0 name); [|apply IH]; cbn [andb cur0 N.eqb Pos.eqb s_updown]; rewrite IH, Z.add_assoc; reflexivity.
Qed.

Theorem get_updown name ops :
  forallb (uses_as KUpDown name) ops = true ->
  mget (fst (mrun false minit ops)) name =
  if reg_or_used name ops then Some (udsum name ops) else None.
Proof.
  intros H. rewrite (get_cell false KUpDown s_updown), (fold_absent KUpDown), updown_fold by (reflexivity || exact H).
  reflexivity.
Qed.

(* reset = true (Register stores a fresh zero): registering again resets the counter *)
Lemma reregister_refuted :
  snd (mrun true minit [MReg 1 KCounter; MInc 1; MInc 1; MGet 1; MReg 1 KCounter; MGet 1; MInc 1; MGet 1]%N) =
    [Some 2; Some 0; Some 1].
Proof. vm_compute. reflexivity. Qed.

Lemma udsum_app name a b : udsum name (a ++ b) = udsum name a + udsum name b.
Proof.
  induction a as [|o r IH]; cbn [app udsum]; [reflexivity|].
  destruct o; try exact IH; rewrite IH; lia.
Qed.
(* An interleaving of the threads' operation lists is a permutation of their concatenation; sums and
   existence tests do not see the order.  Each operation is one atomic step here; Proofs/MetricsConc.v
   looks inside the steps. *)
Theorem interleaved_counter name (threads : list (list mop)) ops :
  Permutation (concat threads) ops ->
  forallb (uses_as KCounter name) (concat threads) = true ->
  mget (fst (mrun false minit ops)) name =
  if reg_or_used name (concat threads) then Some (w64 (csum name (concat threads))) else None.
Proof.
  intros Hp H. rewrite get_counter by (rewrite <- (forallb_perm _ _ _ Hp); exact H).
  unfold reg_or_used. rewrite <- (existsb_perm _ _ _ Hp), <- (additive_perm _ (csum_app name) _ _ Hp). reflexivity.
Qed.

Theorem interleaved_updown name (threads : list (list mop)) ops :
  Permutation (concat threads) ops ->
  forallb (uses_as KUpDown name) (concat threads) = true ->
  mget (fst (mrun false minit ops)) name =
  if reg_or_used name (concat threads) then Some (udsum name (concat threads)) else None.
Proof.
  intros Hp H. rewrite get_updown by (rewrite <- (forallb_perm _ _ _ Hp); exact H).
  unfold reg_or_used. rewrite <- (existsb_perm _ _ _ Hp), <- (additive_perm _ (udsum_app name) _ _ Hp). reflexivity.
Qed.
