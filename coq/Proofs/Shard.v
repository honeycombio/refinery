(* Proofs about Model/Shard.v (C17): the owner of a trace does not depend on the order of the peer
   list and is one of the peers; a span reaches its owner in at most one hop, and no node forwards
   to itself.  At the end a tie between two partition hashes on which two admissible sort orders give
   different owners. *)
From Refinery Require Import Lib.Base Model.Shard Gen.GenC17.
From Coq Require Import Sorting.Sorted Sorting.Permutation.

Lemma ascii_compare_trans_le a b c :
  Ascii.compare a b <> Gt -> Ascii.compare b c <> Gt -> Ascii.compare a c <> Gt.
Proof.
  unfold Ascii.compare. rewrite !N.compare_gt_iff. intros H1 H2 H3. lia.
Qed.

(* the stable insertion sort is one admissible sort.Slice *)
Lemma sort_parts_perm l : Permutation (sort_parts l) l.
Proof. apply (isort_perm part (fun p q => N.leb (uhash p) (uhash q)) ins_part); reflexivity. Qed.

Lemma sort_parts_sorted l : StronglySorted le_uhash (sort_parts l).
Proof.
  apply (isort_sorted part (fun p q => N.leb (uhash p) (uhash q)) ins_part); try reflexivity; unfold le_uhash.
  - intros p q. apply N.leb_le.
  - intros p q E. apply N.leb_gt in E. lia.
  - intros p q r. lia.
Qed.

Section ShardProofs.
  Variable H : string -> N -> N.
  Variable salt : string.
  Variables seed0 pcount : N.
  Variable strict : bool.

  Notation partitions := (partitions H salt seed0 pcount).
  Notation hash_order := (hash_order H salt seed0 pcount).
  Notation benign := (benign H salt seed0 pcount).
  Notation scan := (scan H strict).
  Notation owner := (owner H strict).
  (* [sortp] is true throughout, as loadPeerList sorts the new peer list.  Props/C17.v puts the flag
     found in the source, GenC17.sorts_peers, in its place; that flag computes to true. *)
  Notation load_peers := (load_peers true).
  Notation which_with := (which_with H salt seed0 pcount strict true).

  Lemma load_peers_perm peers : Permutation (load_peers peers) peers.
  Proof. apply (isort_perm addr String.leb ins_addr); reflexivity. Qed.

  Lemma load_peers_perm_eq peers1 peers2 :
    Permutation peers1 peers2 -> load_peers peers1 = load_peers peers2.
  Proof.
    apply (isort_perm_eq addr String.leb ins_addr (fun a b => String.leb a b = true)); try reflexivity.
    - auto.
    - intros a b E. destruct (String.leb_total a b); congruence.
    - exact string_leb_trans.
    - exact String.leb_antisym.
  Qed.

  Lemma sort_parts_hash_order lp : hash_order lp (sort_parts (partitions lp)).
  Proof. split; [apply sort_parts_perm|apply sort_parts_sorted]. Qed.

  (* all nodes run the same (arbitrary) sort function: no hypothesis on the hashes at all *)
  Lemma owner_perm_invariant_fn (srt : list part -> list part) peers1 peers2 tid :
    Permutation peers1 peers2 -> which_with srt peers1 tid = which_with srt peers2 tid.
  Proof.
    intros P. unfold Shard.which_with. rewrite (load_peers_perm_eq _ _ P). reflexivity.
  Qed.

  (* the scan looks at a partition only through (uhash, address) *)
  Definition pview (lp : list addr) (p : part) : N * addr := (uhash p, nth (pix p) lp EmptyString).

  Lemma scan_views lp tid : forall hs1 hs2 b1 b2 mx,
    map (pview lp) hs1 = map (pview lp) hs2 -> nth b1 lp EmptyString = nth b2 lp EmptyString ->
    nth (scan tid hs1 b1 mx) lp EmptyString = nth (scan tid hs2 b2 mx) lp EmptyString.
  Proof.
    induction hs1 as [|p r IH]; intros [|q s] b1 b2 mx E Eb; try discriminate E; [exact Eb|].
    injection E as Eu Ea E. cbn [Shard.scan]. rewrite Eu.
    destruct (better strict (H tid (uhash q)) mx); apply IH; assumption.
  Qed.

  Lemma views_equal lp hs1 hs2 :
    hash_order lp hs1 -> hash_order lp hs2 -> benign lp -> map (pview lp) hs1 = map (pview lp) hs2.
  Proof.
    intros [P1 S1] [P2 S2] B.
    apply (sorted_perm_eq (fun v w => (fst v <= fst w)%N)).
    - apply StronglySorted_map. exact S1.
    - apply StronglySorted_map. exact S2.
    - apply Permutation_map. eapply Permutation_trans; [exact P1|apply Permutation_sym; exact P2].
    - intros x y Hx Hy Lxy Lyx.
      apply in_map_iff in Hx. destruct Hx as [p [<- Hp]].
      apply in_map_iff in Hy. destruct Hy as [q [<- Hq]].
      unfold pview in *. cbn [fst] in Lxy, Lyx.
      assert (E : uhash p = uhash q) by lia.
      rewrite E. f_equal. apply B; [exact (Permutation_in _ P1 Hp)|exact (Permutation_in _ P1 Hq)|exact E].
  Qed.

  Lemma owner_same_view lp hs1 hs2 tid :
    hash_order lp hs1 -> hash_order lp hs2 -> benign lp -> owner lp hs1 tid = owner lp hs2 tid.
  Proof.
    intros O1 O2 B. apply scan_views; [apply views_equal; assumption|reflexivity].
  Qed.

  Lemma owner_perm_invariant peers1 peers2 hs1 hs2 tid :
    Permutation peers1 peers2 ->
    hash_order (load_peers peers1) hs1 -> hash_order (load_peers peers2) hs2 ->
    benign (load_peers peers1) ->
    owner (load_peers peers1) hs1 tid = owner (load_peers peers2) hs2 tid.
  Proof.
    intros P. rewrite <- (load_peers_perm_eq _ _ P). apply owner_same_view.
  Qed.

  Lemma parts_from_pix n p : forall ps ix,
    In p (parts_from H salt seed0 ix ps n) -> (ix <= pix p < ix + length ps)%nat.
  Proof.
    induction ps as [|a r IH]; intros ix Hin; cbn [parts_from] in Hin; [destruct Hin|].
    apply in_app_or in Hin. destruct Hin as [Hin|Hin].
    - unfold hashes_for in Hin. apply in_map_iff in Hin. destruct Hin as [s [<- _]]. cbn [pix length]. lia.
    - apply IH in Hin. cbn [length]. lia.
  Qed.

  Lemma scan_result tid hs : forall b mx, In (scan tid hs b mx) (b :: map pix hs).
  Proof.
    induction hs as [|p r IH]; intros b mx; cbn [Shard.scan map]; [left; reflexivity|].
    destruct (better strict (H tid (uhash p)) mx); [right; apply IH|].
    destruct (IH b mx) as [E|E]; [left|right; right]; exact E.
  Qed.

  Lemma owner_in_lp lp hs tid :
    lp <> [] -> Permutation hs (partitions lp) -> In (owner lp hs tid) lp.
  Proof.
    intros Hne P. unfold Shard.owner. apply nth_In.
    destruct (scan_result tid hs 0%nat 0%N) as [<-|Hin].
    - destruct lp; [congruence|cbn [length]; lia].
    - apply in_map_iff in Hin. destruct Hin as [p [<- Hp]].
      apply (Permutation_in _ P), parts_from_pix in Hp. lia.
  Qed.

  Lemma owner_in_peers peers hs tid :
    peers <> [] -> Permutation hs (partitions (load_peers peers)) ->
    In (owner (load_peers peers) hs tid) peers.
  Proof.
    intros Hne P. apply (Permutation_in _ (load_peers_perm peers)).
    apply owner_in_lp; [|exact P].
    intros E. apply Hne, Permutation_nil. rewrite <- E. apply load_peers_perm.
  Qed.

  Notation node_owner := (node_owner H strict true).
  Notation route := (route H strict true).
  Notation deliver := (deliver H strict true).

  Lemma find_node_self nodes nd :
    NoDup (map self nodes) -> In nd nodes -> find_node (self nd) nodes = Some nd.
  Proof.
    induction nodes as [|x r IH]; intros ND Hin; [destruct Hin|].
    cbn [map] in ND. inversion ND as [|? ? Hnot ND']; subst.
    cbn [find_node]. destruct Hin as [->|Hin]; [rewrite String.eqb_refl; reflexivity|].
    destruct (String.eqb (self x) (self nd)) eqn:E; [|apply IH; assumption].
    apply String.eqb_eq in E. exfalso. apply Hnot. rewrite E. apply in_map. exact Hin.
  Qed.

  Lemma deliver_at f nodes nd tid :
    NoDup (map self nodes) -> In nd nodes ->
    deliver (S f) nodes (self nd) tid =
    match route nd tid with
    | Local => ([], Some (self nd))
    | Forward t => let '(h, c) := deliver f nodes t tid in (t :: h, c)
    end.
  Proof. intros ND Hin. cbn [Shard.deliver]. rewrite (find_node_self _ _ ND Hin). reflexivity. Qed.

  Lemma one_hop_agree nodes o e tid fuel :
    NoDup (map self nodes) ->
    (forall nd, In nd nodes -> node_owner nd tid = o) ->
    (exists nd, In nd nodes /\ self nd = o) ->
    In e nodes ->
    deliver (S (S fuel)) nodes (self e) tid =
      (if String.eqb o (self e) then [] else [o], Some o).
  Proof.
    intros ND Agree [no [Hno <-]] He.
    rewrite deliver_at by assumption. unfold Shard.route. rewrite (Agree _ He).
    destruct (String.eqb_spec (self no) (self e)) as [E|_]; [rewrite E; reflexivity|].
    rewrite deliver_at by assumption. unfold Shard.route. rewrite (Agree _ Hno), String.eqb_refl. reflexivity.
  Qed.

  Definition cluster_ok (peers : list addr) (nodes : list node) : Prop :=
    peers <> [] /\ NoDup (map self nodes) /\
    (forall nd, In nd nodes -> Permutation (view nd) peers /\ hash_order (load_peers (view nd)) (nhs nd)) /\
    (forall a, In a peers -> exists nd, In nd nodes /\ self nd = a).

  (* [Shard.which] with the peer list sorted *)
  Definition canonical_owner (peers : list addr) (tid : string) : addr :=
    which_with sort_parts peers tid.

  Lemma canonical_owner_in_peers peers tid : peers <> [] -> In (canonical_owner peers tid) peers.
  Proof. intros Hne. apply owner_in_peers; [exact Hne|apply sort_parts_perm]. Qed.

  Lemma one_hop peers nodes e tid fuel :
    cluster_ok peers nodes -> benign (load_peers peers) -> In e nodes ->
    let o := canonical_owner peers tid in
    In o peers /\
    deliver (S (S fuel)) nodes (self e) tid = (if String.eqb o (self e) then [] else [o], Some o).
  Proof.
    intros (Hne & ND & Views & Cover) B He o.
    split; [apply canonical_owner_in_peers; exact Hne|].
    apply one_hop_agree; [exact ND| |apply Cover, canonical_owner_in_peers; exact Hne|exact He].
    intros nd Hnd. destruct (Views nd Hnd) as [P O]. unfold o, canonical_owner, Shard.which_with, Shard.node_owner.
    apply owner_perm_invariant; [exact P|exact O|apply sort_parts_hash_order|].
    rewrite (load_peers_perm_eq _ _ P). exact B.
  Qed.

  (* one sort function [srt] on every node (the same binary everywhere); only that it permutes is asked *)
  Definition cluster_ok_fn (srt : list part -> list part) (peers : list addr) (nodes : list node) : Prop :=
    peers <> [] /\ NoDup (map self nodes) /\ (forall l, Permutation (srt l) l) /\
    (forall nd, In nd nodes -> Permutation (view nd) peers /\ nhs nd = srt (partitions (load_peers (view nd)))) /\
    (forall a, In a peers -> exists nd, In nd nodes /\ self nd = a).

  Lemma one_hop_fn srt peers nodes e tid fuel :
    cluster_ok_fn srt peers nodes -> In e nodes ->
    let o := which_with srt peers tid in
    In o peers /\
    deliver (S (S fuel)) nodes (self e) tid = (if String.eqb o (self e) then [] else [o], Some o).
  Proof.
    intros (Hne & ND & Srt & Views & Cover) He o.
    assert (Hin : In o peers) by (apply owner_in_peers; [exact Hne|apply Srt]).
    split; [exact Hin|].
    apply one_hop_agree; [exact ND| |apply Cover; exact Hin|exact He].
    intros nd Hnd. destruct (Views nd Hnd) as [P E]. unfold Shard.node_owner. rewrite E.
    apply (owner_perm_invariant_fn srt _ _ tid P).
  Qed.

  Lemma never_forward_to_self nd tid a : route nd tid = Forward a -> a <> self nd.
  Proof.
    unfold Shard.route. destruct (String.eqb _ (self nd)) eqn:E; [discriminate|].
    intros [= <-]. apply String.eqb_neq. exact E.
  Qed.
End ShardProofs.

Section Benign.
  Variable H : string -> N -> N.
  Variable salt : string.
  Variables seed0 pcount : N.

  Definition benign_b (lp : list addr) : bool :=
    let ps := partitions H salt seed0 pcount lp in
    forallb (fun p => forallb (fun q =>
      implb (N.eqb (uhash p) (uhash q))
            (String.eqb (nth (pix p) lp EmptyString) (nth (pix q) lp EmptyString))) ps) ps.

  Lemma benign_b_sound lp : benign_b lp = true -> benign H salt seed0 pcount lp.
  Proof.
    unfold benign_b, benign. intros B p q Hp Hq E.
    rewrite forallb_forall in B. specialize (B p Hp). rewrite forallb_forall in B. specialize (B q Hq).
    apply N.eqb_eq in E. rewrite E in B. cbn [implb] in B. apply String.eqb_eq. exact B.
  Qed.
End Benign.

(* the source constructs the model mirrors are present (regenerated from the repo) *)
Lemma source_shape :
  sorts_peers && peer_order_is_string_lt && sorts_hashes_by_uhash && partition_hash_is_addr_seed &&
  ppp_is_count_div_len_plus_1 && which_returns_peers_bestix && xorb which_strict which_nonstrict &&
  route_forwards_iff_not_mine = true.
Proof. reflexivity. Qed.

(* the collision hypothesis cannot be dropped for arbitrary tie orders *)
Definition Hcoll (s : string) (seed : N) : N :=
  if String.eqb s "t" then 9%N else 5%N.

Lemma collision_matters :
  let lp := ["a"; "b"]%string in
  let hs1 := [{| uhash := 5; pix := 0 |}; {| uhash := 5; pix := 1 |}]%N in
  let hs2 := [{| uhash := 5; pix := 1 |}; {| uhash := 5; pix := 0 |}]%N in
  hash_order Hcoll "x" 1 0 lp hs1 /\ hash_order Hcoll "x" 1 0 lp hs2 /\
  owner Hcoll true lp hs1 "t" <> owner Hcoll true lp hs2 "t".
Proof.
  cbv zeta. repeat split.
  - apply Permutation_refl.
  - repeat constructor; unfold le_uhash; cbn; lia.
  - apply perm_swap.
  - repeat constructor; unfold le_uhash; cbn; lia.
  - vm_compute. discriminate.
Qed.
