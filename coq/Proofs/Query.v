(* Proofs about Model/Query.v (C25).  [table_ok], checked on the extracted routing table, puts every route to
   a sensitive handler behind the token check; the statements about [serve] follow by inverting its answer
   ([serve_inv]) and looking the dispatched route up in that table. *)
From Refinery Require Import Lib.Base Gen.GenC25 Model.Query.

Lemma nonempty_true s : nonempty s = true <-> s <> ""%string.
Proof. unfold nonempty. rewrite negb_true_iff. apply String.eqb_neq. Qed.

Lemma smem_In s l : smem s l = true <-> In s l.
Proof.
  unfold smem. rewrite existsb_exists. split.
  - intros [x [Hin He]]. apply String.eqb_eq in He. subst. exact Hin.
  - intros H. exists s. split; [exact H | apply String.eqb_refl].
Qed.

Lemma authorized_iff required hdr : authorized required hdr = true <-> required <> ""%string /\ hdr = required.
Proof.
  unfold authorized. rewrite andb_true_iff, nonempty_true, String.eqb_eq. reflexivity.
Qed.

Lemma authorized_not required hdr : hdr <> required -> authorized required hdr = false.
Proof.
  intros H. apply not_true_is_false. intros E. apply authorized_iff in E. tauto.
Qed.

(* evaluated on the routing table of Gen/GenC25.v: stops compiling when a route in the source escapes the check *)
Lemma table_ok_true : table_ok = true.
Proof. vm_compute. reflexivity. Qed.

(* the flattened table, evaluated once: reducing [routes] inside a goal re-runs [flatten] over the generated tables *)
Definition routes_nf : list route := Eval vm_compute in routes.
Lemma routes_eq : routes = routes_nf.
Proof. vm_compute. reflexivity. Qed.

Lemma routes_guarded : forallb route_guarded routes = true.
Proof. pose proof table_ok_true as G. unfold table_ok in G. rewrite !andb_true_iff in G. tauto. Qed.

Lemma sensitive_route_facts r : In r routes -> smem (rt_handler r) sensitive = true ->
  smem checker_name (rt_mws r) = true /\ rt_methods r = query_methods /\ query_methods <> [].
Proof.
  intros Hin Hs. apply (proj1 (forallb_forall _ _) routes_guarded) in Hin.
  unfold route_guarded, is_query_route in Hin.
  rewrite Hs in Hin. cbn [orb] in Hin.
  apply andb_prop in Hin as [Hin Hne]. apply andb_prop in Hin as [Hc Hm].
  apply (list_eqb_eq _ String.eqb_eq) in Hm.
  repeat split; [exact Hc | exact Hm | intros E; rewrite E in Hne; discriminate].
Qed.

Lemma route_matches_method m ss r :
  route_matches m ss r = true -> rt_methods r = [] \/ In m (rt_methods r).
Proof.
  unfold route_matches. intros H. apply andb_prop in H as [H _].
  destruct (rt_methods r); [left; reflexivity | right; apply smem_In, H].
Qed.

Lemma serve_inv required clean m p hdr :
  match serve required clean m p hdr with
  | QData h => exists rt, dispatch m p = Some rt /\ rt_handler rt = h /\
                 if smem checker_name (rt_mws rt) then authorized required hdr = true
                 else smem h sensitive = true
  | QDenied st body => authorized required hdr = false /\ (st, body) = denied_reply required hdr
  | QOther h => smem h sensitive = false
  | QRedirect | QNone => True
  end.
Proof.
  unfold serve. destruct clean; cbn [negb]; [|exact I].
  destruct (dispatch m p) as [rt|]; [|exact I].
  destruct (smem checker_name (rt_mws rt)) eqn:C.
  - destruct (authorized required hdr) eqn:A.
    + exists rt. rewrite C. auto.
    + destruct (denied_reply required hdr). auto.
  - destruct (smem (rt_handler rt) sensitive) eqn:S; [|exact S]. exists rt. rewrite C. auto.
Qed.

Lemma data_route required clean m p hdr h :
  serve required clean m p hdr = QData h ->
  authorized required hdr = true /\
  exists rt, In rt routes /\ route_matches m (segs p) rt = true /\ rt_handler rt = h.
Proof.
  intros E. pose proof (serve_inv required clean m p hdr) as H. rewrite E in H.
  destruct H as (rt & D & Hh & H). apply find_some in D as [Hin Hm].
  split; [|eauto]. destruct (smem checker_name (rt_mws rt)) eqn:C; [exact H|].
  rewrite <- Hh in H. apply (sensitive_route_facts _ Hin) in H as [Hc _]. congruence.
Qed.

Theorem data_only_when_authorized required clean m p hdr h :
  serve required clean m p hdr = QData h -> required <> ""%string /\ hdr = required.
Proof. intros E. apply authorized_iff, (data_route _ _ _ _ _ _ E). Qed.

Theorem unlisted_method_no_data required clean m p hdr h :
  ~ In m query_methods -> In h sensitive -> serve required clean m p hdr <> QData h.
Proof.
  intros Hm Hs E. destruct (data_route _ _ _ _ _ _ E) as (_ & rt & Hin & Hmatch & <-).
  apply smem_In in Hs. destruct (sensitive_route_facts _ Hin Hs) as (_ & Hmeth & Hne).
  apply route_matches_method in Hmatch. rewrite Hmeth in Hmatch. tauto.
Qed.

Theorem sensitive_never_unguarded required clean m p hdr h :
  serve required clean m p hdr = QOther h -> ~ In h sensitive.
Proof.
  intros E Hin. pose proof (serve_inv required clean m p hdr) as H. rewrite E in H.
  apply smem_In in Hin. congruence.
Qed.

Theorem denied_is_the_fixed_reply required clean m p hdr st body :
  serve required clean m p hdr = QDenied st body ->
  authorized required hdr = false /\ (st, body) = denied_reply required hdr.
Proof. intros E. pose proof (serve_inv required clean m p hdr) as H. rewrite E in H. exact H. Qed.

Lemma denied_reply_indep r1 r2 hdr : nonempty r1 = nonempty r2 -> denied_reply r1 hdr = denied_reply r2 hdr.
Proof. unfold denied_reply. intros H. rewrite H. reflexivity. Qed.

(* Each documented shape of path fixes the literal segments, after which [find] runs through the evaluated
   table; the variable segments only have to be non-empty. *)
Lemma endpoints_dispatch m p h :
  spec_endpoint m p = Some h ->
  exists rt, dispatch m p = Some rt /\ rt_handler rt = h /\ smem checker_name (rt_mws rt) = true.
Proof.
  unfold spec_endpoint, dispatch. rewrite routes_eq.
  destruct (String.eqb_spec m "GET") as [->|]; [|discriminate].
  destruct (segs p) as [|q [|t [|x [|y [|z r]]]]]; try discriminate; cbn [negb].
  - destruct (String.eqb q "query" && String.eqb t "configmetadata") eqn:E; [|discriminate].
    rewrite !andb_true_iff, !String.eqb_eq in E. destruct E as [-> ->].
    intros [= <-]. eexists. repeat split.
  - destruct (String.eqb q "query" && String.eqb t "trace" && nonempty x) eqn:E.
    + rewrite !andb_true_iff, !String.eqb_eq in E. destruct E as [[-> ->] Ex].
      intros [= <-]. cbn. rewrite Ex. eexists. repeat split.
    + destruct (String.eqb q "query" && String.eqb t "allrules" && nonempty x) eqn:E2; [|discriminate].
      rewrite !andb_true_iff, !String.eqb_eq in E2. destruct E2 as [[-> ->] Ex].
      intros [= <-]. cbn. rewrite Ex. eexists. repeat split.
  - destruct (String.eqb q "query" && String.eqb t "rules" && nonempty x && nonempty y) eqn:E; [|discriminate].
    rewrite !andb_true_iff, !String.eqb_eq in E. destruct E as [[[-> ->] Ex] Ey].
    intros [= <-]. cbn. rewrite Ex, Ey. eexists. repeat split.
Qed.

Theorem documented_endpoints_serve required m p hdr h :
  spec_endpoint m p = Some h ->
  serve required true m p hdr =
  if authorized required hdr then QData h
  else QDenied (fst (denied_reply required hdr)) (snd (denied_reply required hdr)).
Proof.
  intros S. destruct (endpoints_dispatch _ _ _ S) as (rt & D & <- & C).
  unfold serve. cbn [negb]. rewrite D, C. destruct (denied_reply required hdr). reflexivity.
Qed.
