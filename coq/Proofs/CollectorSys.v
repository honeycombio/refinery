(* The product of workers hands over no (trace, span) pair more often than the system accepted it: its
   events are an interleaving of the per-worker event lists, each worker is so bounded by what it
   accepted, and an op is addressed to one worker.  Nothing invented and exactly once follow. *)
From Coq Require Import Permutation.
From Refinery Require Import Lib.Base Model.Collector Proofs.CollectorAbs Proofs.CollectorRef.

Section Sys.
  Variable sampler : N -> list span -> bool.
  Variable dry : bool.
  Notation run := (run sampler dry).
  Notation sys_run := (sys_run sampler dry).

  Definition sys_span_keys (ops : list sop) : list (N * N) := span_keys (map sop_op ops).

  Lemma pops_keys_bounded ops p : forall l, NoDup l ->
    (cnt (flat_map (fun i => span_keys (pops i ops)) l) p <= cnt (sys_span_keys ops) p)%nat.
  Proof.
    induction ops as [|[j o] r IH]; intros l Hl.
    - clear Hl. induction l as [|a l IHl]; [apply Nat.le_refl|exact IHl].
    - (* the first op counts for worker j, once if j is in l, and for no other worker *)
      rewrite (flat_map_ext _ (fun i => (if Nat.eqb j i then span_keys [o] else []) ++ span_keys (pops i r))).
      + rewrite (proj1 (Permutation_count_occ key_dec _ _) (flat_map_app_perm _ _ _)), flat_map_select by exact Hl.
        unfold sys_span_keys. cbn [map sop_op]. rewrite (span_keys_cons o (map sop_op r)), !count_occ_app.
        apply Nat.add_le_mono; [destruct (in_dec _ _ _); [apply Nat.le_refl|apply Nat.le_0_l]|apply IH, Hl].
      + intros i. unfold pops. cbn [filter sop_w]. destruct (Nat.eqb j i); [apply span_keys_cons|reflexivity].
  Qed.

  Theorem sys_out_bounded n c ops p :
    (cnt (map proj (concat (snd (sys_run (repeat (winit c) n) ops)))) p <= cnt (sys_span_keys ops) p)%nat.
  Proof.
    rewrite (proj1 (Permutation_count_occ key_dec _ _)
                   (Permutation_map proj (sys_events_by_worker sampler dry n c ops))), map_flat_map.
    apply (Nat.le_trans _ (cnt (flat_map (fun i => span_keys (pops i ops)) (seq 0 n)) p)).
    - apply count_occ_flat_map_le. intros i _. apply worker_out_bounded.
    - apply pops_keys_bounded, seq_NoDup.
  Qed.

  Theorem sys_nothing_invented n c ops t s :
    forwarded (snd (sys_run (repeat (winit c) n) ops)) t s -> sys_accepted ops t s.
  Proof.
    unfold sys_accepted. rewrite forwarded_proj, <- in_rev, <- span_keys_in, !(count_occ_In key_dec).
    pose proof (sys_out_bounded n c ops (t, s)). unfold sys_span_keys in *. lia.
  Qed.

  Theorem sys_out_nodup n c ops :
    NoDup (sys_span_keys ops) -> NoDup (map proj (concat (snd (sys_run (repeat (winit c) n) ops)))).
  Proof.
    rewrite !(NoDup_count_occ key_dec). intros Hnd p.
    exact (Nat.le_trans _ _ _ (sys_out_bounded n c ops p) (Hnd p)).
  Qed.
End Sys.
