(* Usage tracker, for every history of readings, reports and send outcomes: sent + pending = growth,
   where the growth is the latest nonzero reading; a sent report leaves nothing pending; no payload
   carries a negative value; with readings that never decrease no report is refused. *)
From Refinery Require Import Lib.Base Model.Usage.

Lemma tot_nil k : tot [] k = 0.
Proof. reflexivity. Qed.

Lemma tot_aset k v m k' : tot (aset k v m) k' = if N.eqb k' k then v else tot m k'.
Proof. unfold tot. rewrite alookup_aset. destruct (N.eqb k' k); reflexivity. Qed.

Lemma tot_addv k v m k' : tot (addv k v m) k' = tot m k' + (if N.eqb k k' then v else 0).
Proof.
  unfold addv. rewrite tot_aset, (N.eqb_sym k k').
  destruct (N.eqb_spec k' k) as [->|]; lia.
Qed.

Lemma psum_cons k' v l k : psum ((k', v) :: l) k = (if N.eqb k' k then v else 0) + psum l k.
Proof. reflexivity. Qed.

Lemma psum_app a b k : psum (a ++ b) k = psum a k + psum b k.
Proof. induction a as [|[k' v] r IH]; cbn [app]; [reflexivity|]. rewrite !psum_cons, IH. lia. Qed.

Lemma tot_merge extra m k : tot (merge extra m) k = tot m k + psum extra k.
Proof.
  induction extra as [|[k' v] r IH]; [cbn; lia|].
  change (merge ((k', v) :: r) m) with (addv k' v (merge r m)). rewrite tot_addv, psum_cons, IH. lia.
Qed.

Lemma psum_tot m k : NoDup (akeys m) -> psum m k = tot m k.
Proof.
  induction m as [|[k' v] r IH]; intros H; [reflexivity|].
  inversion H as [|? ? Hn Hr]; subst. rewrite psum_cons, (IH Hr). unfold tot. cbn [alookup].
  rewrite (N.eqb_sym k k'). destruct (N.eqb_spec k' k) as [->|]; [|reflexivity].
  destruct (alookup k r) eqn:L; [|lia]. exfalso. apply Hn, In_akeys_alookup. congruence.
Qed.

Lemma NoDup_merge extra m : NoDup (akeys m) -> NoDup (akeys (merge extra m)).
Proof. induction extra as [|x r IH]; intros H; cbn [merge fold_right]; [exact H|]. apply NoDup_akeys_aset, IH, H. Qed.

Lemma urun_cons s o r :
  urun s (o :: r) = (fst (urun (fst (ustep s o)) r), snd (ustep s o) :: snd (urun (fst (ustep s o)) r)).
Proof.
  unfold urun, ustep. cbn [urun_gen]. destruct (ustep_gen true s o) as [s1 out]. cbn [fst snd].
  destruct (urun_gen true s1 r) as [s2 outs]. reflexivity.
Qed.

(* NewReport: the points of the previous report that were never confirmed are carried over *)
Definition folded (s : ustate) : ustate :=
  {| lastUsage := lastUsage s; cur := []; lastp := merge (lastp s) (cur s) |}.

(* sendUsageReport ends in one of three ways: nothing to report; a negative value refuses the report;
   the payload goes out in n attempts and, when one is confirmed, completeSend empties the payload kept for the next report *)
Inductive report_spec (s : ustate) : ustate * uout -> Prop :=
| report_nodata : report_spec s (s, ONoData)
| report_refused : existsb (fun kv => snd kv <? 0) (cur s ++ lastp s) = true -> report_spec s (s, OError)
| report_made (n : N) (sent : bool) : existsb (fun kv => snd kv <? 0) (cur s ++ lastp s) = false ->
    report_spec s (if sent then complete (folded s) else folded s, OReport (cur s ++ lastp s) n sent).

Lemma ureport_spec s r1 r2 : report_spec s (ustep s (UReport r1 r2)).
Proof.
  cbn [ustep ustep_gen]. unfold ureport_gen.
  destruct (is_nil (cur s) && is_nil (lastp s)); [constructor|].
  destruct (existsb _ (cur s ++ lastp s)) eqn:E; [constructor; exact E|].
  destruct r1; [|destruct r2|];
    first [exact (report_made s _ true E)|exact (report_made s _ false E)].
Qed.

(* cur and lastp are Go maps: a key occurs once *)
Definition wfs (s : ustate) : Prop := NoDup (akeys (cur s)) /\ NoDup (akeys (lastp s)).
(* what is waiting for k less the growth of k.  Readings raise both alike, a report that is not sent moves usage
   between the two pending maps, and a sent report lowers it by what it carries ([step_accounting]). *)
Definition balance (s : ustate) (k : N) : Z := pending s k - tot (lastUsage s) k.

Lemma balance_uadd s sig data k : balance (uadd s sig data) k = balance s k.
Proof.
  unfold uadd. destruct (data =? 0); [reflexivity|].
  unfold balance, pending. cbn [cur lastp lastUsage]. rewrite tot_addv, tot_aset, (N.eqb_sym k sig).
  destruct (N.eqb_spec sig k) as [->|]; lia.
Qed.

Lemma pending_folded s k : NoDup (akeys (lastp s)) -> pending (folded s) k = pending s k.
Proof. intros Hl. unfold pending, folded. cbn [cur lastp]. rewrite tot_merge, (psum_tot _ _ Hl), tot_nil. lia. Qed.

Lemma psum_payload s k : wfs s -> psum (cur s ++ lastp s) k = pending s k.
Proof. intros [Hc Hl]. rewrite psum_app, (psum_tot _ _ Hc), (psum_tot _ _ Hl). reflexivity. Qed.

Lemma step_accounting s o k :
  wfs s -> wfs (fst (ustep s o)) /\ sent_of [snd (ustep s o)] k + balance (fst (ustep s o)) k = balance s k.
Proof.
  intros Hw. destruct o as [sig data|r1 r2].
  - cbn [ustep ustep_gen fst snd sent_of fold_right]. rewrite balance_uadd. split; [|lia].
    unfold uadd. destruct (data =? 0); [exact Hw|]. split; [apply NoDup_akeys_aset|]; apply Hw.
  - destruct (ureport_spec s r1 r2) as [| |n [|] _]; cbn [fst snd sent_of fold_right]; try (split; [exact Hw|lia]).
    + (* sent: the payload is all that was pending *)
      split; [split; constructor|]. rewrite (psum_payload s k Hw). unfold balance, pending. cbn. lia.
    + split; [split; [constructor|apply NoDup_merge, Hw]|].
      unfold balance. rewrite pending_folded by apply Hw. cbn [folded lastUsage]. lia.
Qed.

Lemma sent_of_cons o outs k : sent_of (o :: outs) k = sent_of [o] k + sent_of outs k.
Proof. cbn [sent_of fold_right]. fold (sent_of outs k). lia. Qed.

Lemma run_accounting ops : forall s k,
  wfs s -> wfs (fst (urun s ops)) /\ sent_of (snd (urun s ops)) k + balance (fst (urun s ops)) k = balance s k.
Proof.
  induction ops as [|o r IH]; intros s k Hw.
  - cbn. split; [exact Hw|lia].
  - rewrite urun_cons. cbn [fst snd].
    destruct (step_accounting s o k Hw) as [Hw1 H1]. destruct (IH _ k Hw1) as [Hw2 H2].
    split; [exact Hw2|]. rewrite sent_of_cons. lia.
Qed.

Theorem accounting ops k :
  let '(s, outs) := urun uinit ops in
  sent_of outs k + pending s k = tot (lastUsage s) k.
Proof.
  pose proof (run_accounting ops uinit k (conj (NoDup_nil _) (NoDup_nil _))) as [_ H].
  destruct (urun uinit ops) as [s outs]. cbn [fst snd] in H. unfold balance in H. cbn in H. lia.
Qed.

Lemma growth_run ops : forall s k,
  tot (lastUsage (fst (urun s ops))) k = last_reading ops k (tot (lastUsage s) k).
Proof.
  induction ops as [|o r IH]; intros s k; [reflexivity|].
  rewrite urun_cons. cbn [fst]. rewrite IH. destruct o as [sig data|r1 r2]; cbn [last_reading].
  - cbn [ustep ustep_gen fst]. unfold uadd. destruct (data =? 0); cbn [negb]; [rewrite andb_false_r; reflexivity|].
    cbn [lastUsage]. rewrite tot_aset, andb_true_r, (N.eqb_sym k sig). destruct (N.eqb sig k); reflexivity.
  - destruct (ureport_spec s r1 r2) as [| |n [|] _]; reflexivity.
Qed.

Theorem growth_is_last_reading ops k :
  tot (lastUsage (fst (urun uinit ops))) k = last_reading ops k 0.
Proof. apply growth_run. Qed.

Lemma sent_report_flushes s r1 r2 p n k :
  snd (ustep s (UReport r1 r2)) = OReport p n true -> pending (fst (ustep s (UReport r1 r2))) k = 0.
Proof.
  destruct (ureport_spec s r1 r2) as [| |n' [|] _]; cbn [fst snd]; try discriminate. reflexivity.
Qed.

Theorem flushed_after_sent ops r1 r2 p n k :
  snd (ustep (fst (urun uinit ops)) (UReport r1 r2)) = OReport p n true ->
  let s := fst (ustep (fst (urun uinit ops)) (UReport r1 r2)) in
  pending s k = 0.
Proof. apply sent_report_flushes. Qed.

Definition nonneg (m : amap Z) : Prop := Forall (fun kv => 0 <= snd kv) m.

Definition payload_nonneg (o : uout) : Prop :=
  match o with OReport p _ _ => Forall (fun kv => 0 <= snd kv) p | _ => True end.

(* the test of addOTLPSum, read as a property *)
Lemma no_neg_iff (l : list (N * Z)) : existsb (fun kv => snd kv <? 0) l = false <-> nonneg l.
Proof.
  unfold nonneg. induction l as [|x r IH]; cbn [existsb]; [split; [constructor|reflexivity]|].
  rewrite orb_false_iff, Forall_cons_iff, IH, Z.ltb_ge. reflexivity.
Qed.

Theorem no_negative_usage ops : forall s, Forall payload_nonneg (snd (urun s ops)).
Proof.
  induction ops as [|o r IH]; intros s; [constructor|].
  rewrite urun_cons. constructor; [|apply IH].
  destruct o as [sig data|r1 r2]; [exact I|].
  destruct (ureport_spec s r1 r2) as [| |n sent E]; [exact I..|]. apply no_neg_iff, E.
Qed.

Lemma nonneg_tot m k : nonneg m -> 0 <= tot m k.
Proof.
  unfold tot. intros H. destruct (alookup k m) as [v|] eqn:L; [|lia].
  apply alookup_In in L. unfold nonneg in H. rewrite Forall_forall in H. apply (H (k, v) L).
Qed.
Lemma nonneg_addv k v m : 0 <= v -> nonneg m -> nonneg (addv k v m).
Proof.
  intros Hv H. unfold addv, aset. constructor; [cbn [snd]; pose proof (nonneg_tot m k H); lia|].
  exact (incl_Forall (incl_aremove k m) H).
Qed.
Lemma nonneg_merge extra m : nonneg extra -> nonneg m -> nonneg (merge extra m).
Proof.
  induction extra as [|[k v] r IH]; intros He Hm; cbn [merge fold_right]; [exact Hm|].
  inversion He as [|? ? Hh Hr]; subst. apply nonneg_addv; [exact Hh|apply IH; assumption].
Qed.

(* lastr is the accumulator of [monotone]: the latest nonzero reading of every signal *)
Definition MI (s : ustate) (lastr : amap Z) : Prop :=
  nonneg (cur s) /\ nonneg (lastp s) /\ forall k, tot (lastUsage s) k = tot lastr k.

Lemma MI_add s lastr sig data :
  MI s lastr -> tot lastr sig <= data -> 0 <= data ->
  MI (uadd s sig data) (if data =? 0 then lastr else aset sig data lastr).
Proof.
  intros (Hc & Hl & Hu) H1 H2. unfold uadd. destruct (data =? 0); [repeat split; assumption|].
  repeat split; cbn [cur lastp lastUsage]; [|exact Hl|].
  - apply nonneg_addv; [rewrite Hu; lia|exact Hc].
  - intros k. rewrite !tot_aset. destruct (N.eqb k sig); [reflexivity|apply Hu].
Qed.

Lemma MI_report s lastr r1 r2 :
  MI s lastr -> MI (fst (ustep s (UReport r1 r2))) lastr /\ snd (ustep s (UReport r1 r2)) <> OError.
Proof.
  intros (Hc & Hl & Hu). destruct (ureport_spec s r1 r2) as [|E|n sent _]; cbn [fst snd].
  - split; [repeat split; assumption|discriminate].
  - rewrite (proj2 (no_neg_iff _)) in E; [discriminate|apply Forall_app; split; assumption].
  - split; [|discriminate]. destruct sent; repeat split; cbn [complete folded cur lastp lastUsage];
      try assumption; try constructor. apply nonneg_merge; assumption.
Qed.

Theorem monotone_never_refused ops : forall s lastr,
  MI s lastr -> monotone ops lastr = true ->
  ~ In OError (snd (urun s ops)) /\ forall k, 0 <= pending (fst (urun s ops)) k.
Proof.
  induction ops as [|o r IH]; intros s lastr HI Hm.
  - cbn [urun urun_gen fst snd]. split; [intros []|]. intros k. unfold pending. destruct HI as (Hc & Hl & _).
    pose proof (nonneg_tot (cur s) k Hc). pose proof (nonneg_tot (lastp s) k Hl). lia.
  - rewrite urun_cons. cbn [fst snd]. destruct o as [sig data|r1 r2]; cbn [monotone] in Hm.
    + apply andb_true_iff in Hm as [Hm Hr]. apply andb_true_iff in Hm as [H1 H2]. apply Z.leb_le in H1, H2.
      destruct (IH _ _ (MI_add s lastr sig data HI H1 H2) Hr) as [A B].
      split; [intros [E|E]; [discriminate|exact (A E)]|exact B].
    + destruct (MI_report s lastr r1 r2 HI) as [HI' Hne]. destruct (IH _ _ HI' Hm) as [A B].
      split; [intros [E|E]; [exact (Hne E)|exact (A E)]|exact B].
Qed.
