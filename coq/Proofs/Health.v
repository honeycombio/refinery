(* Health: refinement of the three-map implementation model to the registration / last-report /
   tick-count specification, and the timing invariants of tick-periodic histories. *)
From Refinery Require Import Lib.Base Model.Health.

Lemma mem_N_nremove k k' l :
  mem_N k' (nremove k l) = if N.eqb k' k then false else mem_N k' l.
Proof.
  unfold nremove. induction l as [|x r IH]; cbn [filter mem_N]; [destruct (N.eqb k' k); reflexivity|].
  destruct (N.eqb_spec k x) as [<-|Hx]; cbn [negb mem_N]; rewrite IH.
  - destruct (N.eqb k' k); reflexivity.
  - destruct (N.eqb_spec k' k) as [->|]; [|reflexivity].
    apply N.eqb_neq in Hx. rewrite Hx. reflexivity.
Qed.

(* the ticker's loop and the specification's HTick, which the models spell out as maps, are mapv *)
Lemma tick_all_mapv T m : tick_all T m = mapv (dec T) m.
Proof. reflexivity. Qed.

Lemma sstep_tick T sp :
  sstep T sp HTick =
  ({| h_now := h_now sp; h_nt := h_nt sp + T; subs := mapv tick_sub (subs sp); unreg := unreg sp |}, HNone).
Proof. reflexivity. Qed.

Lemma ticks_nonneg T n : 0 <= T -> 0 <= Z.of_N n * T.
Proof. intros HT. apply Z.mul_nonneg_nonneg; lia. Qed.

(* the counter the implementation keeps, as a function of the specification *)
Definition counter (T : Z) (sb : sub) : Z :=
  match s_rep sb with
  | None => -1
  | Some (_, n, _) => if s_to sb <=? 0 then s_to sb else Z.max 0 (s_to sb - Z.of_N n * T)
  end.

Lemma counter_zero T sb : 0 <= T -> (counter T sb =? 0) = dead_sub T sb.
Proof.
  intros HT. unfold counter, dead_sub. destruct (s_rep sb) as [[[b n] r]|]; [|reflexivity].
  pose proof (ticks_nonneg T n HT).
  apply eq_true_iff_eq. rewrite andb_true_iff, Z.eqb_eq, !Z.leb_le.
  destruct (Z.leb_spec (s_to sb) 0); lia.
Qed.

Lemma counter_pos T sb : 0 <= T -> (0 <? counter T sb) = fresh_sub T sb.
Proof.
  intros HT. unfold counter, fresh_sub. destruct (s_rep sb) as [[[b n] r]|]; [|reflexivity].
  pose proof (ticks_nonneg T n HT).
  apply eq_true_iff_eq. rewrite !Z.ltb_lt.
  destruct (Z.leb_spec (s_to sb) 0); lia.
Qed.

Lemma counter_tick T sb : 0 <= T -> counter T (tick_sub sb) = dec T (counter T sb).
Proof.
  intros HT. unfold counter, tick_sub, dec. cbn [s_to s_rep].
  destruct (s_rep sb) as [[[b n] r]|]; [|reflexivity].
  pose proof (ticks_nonneg T n HT).
  rewrite N2Z.inj_succ.
  destruct (Z.leb_spec (s_to sb) 0) as [Hle|Hgt].
  - destruct (Z.ltb_spec 0 (s_to sb)); [lia|reflexivity].
  - destruct (Z.ltb_spec 0 (Z.max 0 (s_to sb - Z.of_N n * T))); lia.
Qed.

Lemma counter_report T to b r : counter T {| s_to := to; s_rep := Some (b, 0%N, r) |} = to.
Proof. unfold counter. cbn [s_to s_rep Z.of_N]. destruct (Z.leb_spec to 0); lia. Qed.

Lemma flag_tick sb : flag_sub (tick_sub sb) = flag_sub sb.
Proof. unfold flag_sub, tick_sub. cbn [s_rep]. destruct (s_rep sb) as [[[b n] r]|]; reflexivity. Qed.

(* what readies holds for a key *)
Definition rd_of (sp : hspec) (k : N) : option bool :=
  match alookup k (subs sp) with
  | Some sb => Some (flag_sub sb)
  | None => if mem_N k (unreg sp) then Some false else None
  end.

(* timeLeft follows subs entry by entry, in the same order; timeouts and readies are related by key
   only, their order is not determined by the specification state *)
Record refines (T : Z) (s : hstate) (sp : hspec) : Prop := {
  rf_nd_rd : NoDup (akeys (readies s));
  rf_nd_sb : NoDup (akeys (subs sp));
  rf_disj : forall k, mem_N k (unreg sp) = true -> alookup k (subs sp) = None;
  rf_to : forall k, alookup k (timeouts s) = option_map s_to (alookup k (subs sp));
  rf_tl : timeLeft s = mapv (counter T) (subs sp);
  rf_rd : forall k, alookup k (readies s) = rd_of sp k }.
Arguments rf_nd_sb {T s sp}.
Arguments rf_tl {T s sp}.

Lemma refines_init T t0 : refines T hinit (sinit T t0).
Proof. constructor; cbn; [constructor|constructor|discriminate|reflexivity..]. Qed.

Lemma alive_agree T s sp : 0 <= T -> refines T s sp -> check_alive s = spec_alive T sp.
Proof.
  intros HT HR. unfold check_alive, spec_alive. rewrite (rf_tl HR).
  apply forallb_mapv. intros k sb. cbn [snd]. rewrite counter_zero by exact HT. reflexivity.
Qed.

Lemma ready_agree T s sp : 0 <= T -> refines T s sp -> check_ready s = spec_ready T sp.
Proof.
  intros HT [Hnr Hns Hdj _ Htl Hrd]. unfold check_ready, spec_ready.
  rewrite Htl, (forallb_mapv _ (fun kv => fresh_sub T (snd kv))) by (intros; apply counter_pos, HT).
  destruct (unreg sp) as [|u l] eqn:U.
  - assert (Hfl : forall k, alookup k (readies s) = option_map flag_sub (alookup k (subs sp))).
    { intros k. rewrite Hrd. unfold rd_of. rewrite U. destruct (alookup k (subs sp)); reflexivity. }
    destruct (readies s) as [|[k0 b0] rs], (subs sp) as [|[k1 sb1] qs]; [reflexivity|..].
    + specialize (Hfl k1). cbn [alookup] in Hfl. rewrite N.eqb_refl in Hfl. discriminate.
    + specialize (Hfl k0). cbn [alookup] in Hfl. rewrite N.eqb_refl in Hfl. discriminate.
    + cbn [negb andb]. apply eq_true_iff_eq.
      rewrite andb_true_iff, !forallb_alookup by assumption. cbn [snd]. split.
      * intros [Hf Hb] k sb Hl. rewrite (Hf k sb Hl). apply (Hb k). rewrite Hfl, Hl. reflexivity.
      * intros H. split; [intros k sb Hl; specialize (H k sb Hl); apply andb_true_iff in H; tauto|].
        intros k b Hl. rewrite Hfl in Hl. destruct (alookup k _) as [sb|] eqn:L; [|discriminate].
        injection Hl as <-. specialize (H k sb L). apply andb_true_iff in H. tauto.
  - (* an unregistered subsystem keeps its entry in readies, which is false *)
    rewrite !andb_false_r. destruct (readies s); [reflexivity|].
    rewrite (forallb_alookup_false _ u false); [apply andb_false_r| |reflexivity].
    rewrite Hrd. unfold rd_of. rewrite U, Hdj; cbn [mem_N]; rewrite N.eqb_refl; reflexivity.
Qed.

Lemma step_refines T s sp o :
  0 <= T -> refines T s sp ->
  snd (hstep T s o) = snd (sstep T sp o) /\ refines T (fst (hstep T s o)) (fst (sstep T sp o)).
Proof.
  intros HT HR. pose proof HR as [Hnr Hns Hdj Hto Htl Hrd].
  destruct o as [k to|k|k b| |d| |]; rewrite ?sstep_tick (* HTick in its mapv form *); cbn [hstep sstep].
  - (* HReg *)
    split; [reflexivity|]. constructor; cbn [fst timeouts timeLeft readies subs unreg];
      auto using NoDup_akeys_aset.
    + intros k'. rewrite mem_N_nremove, alookup_aset. destruct (N.eqb k' k); [discriminate|apply Hdj].
    + intros k'. rewrite !alookup_aset, Hto. destruct (N.eqb k' k); reflexivity.
    + rewrite Htl, mapv_aset. reflexivity.
    + intros k'. unfold rd_of. cbn [subs unreg]. rewrite !alookup_aset, mem_N_nremove, Hrd. unfold rd_of.
      destruct (N.eqb k' k); reflexivity.
  - (* HUnreg *)
    split; [reflexivity|]. constructor; cbn [fst timeouts timeLeft readies subs unreg];
      auto using NoDup_akeys_aset, NoDup_akeys_aremove.
    + intros k'. cbn [mem_N]. rewrite mem_N_nremove, alookup_aremove.
      destruct (N.eqb k' k); [reflexivity|apply Hdj].
    + intros k'. rewrite !alookup_aremove, Hto. destruct (N.eqb k' k); reflexivity.
    + rewrite Htl, mapv_aremove. reflexivity.
    + intros k'. unfold rd_of. cbn [subs unreg mem_N]. rewrite alookup_aset, alookup_aremove, mem_N_nremove, Hrd.
      unfold rd_of. destruct (N.eqb k' k); reflexivity.
  - (* HReady: for a subsystem that is not registered it changes nothing on either side *)
    rewrite Hto. destruct (alookup k (subs sp)) as [sb|] eqn:L; cbn [option_map]; [|split; [reflexivity|exact HR]].
    split; [reflexivity|]. constructor; cbn [fst timeouts timeLeft readies subs unreg];
      auto using NoDup_akeys_aset.
    + intros k' Hm. rewrite alookup_aset. destruct (N.eqb_spec k' k) as [->|]; [|apply Hdj, Hm].
      rewrite (Hdj k Hm) in L. discriminate.
    + intros k'. rewrite alookup_aset, Hto. destruct (N.eqb_spec k' k) as [->|]; [|reflexivity].
      rewrite L. reflexivity.
    + rewrite Htl, mapv_aset, counter_report. reflexivity.
    + intros k'. unfold rd_of. cbn [subs unreg]. rewrite !alookup_aset, Hrd. unfold rd_of.
      destruct (N.eqb k' k); reflexivity.
  - (* HTick: counting the implementation's counter down is counting one more tick *)
    split; [reflexivity|].
    constructor; cbn [fst timeouts timeLeft readies subs unreg]; [exact Hnr|rewrite akeys_mapv; exact Hns|..].
    + intros k' Hm. rewrite alookup_mapv, (Hdj k' Hm). reflexivity.
    + intros k'. rewrite alookup_mapv, Hto. destruct (alookup k' (subs sp)); reflexivity.
    + rewrite Htl, tick_all_mapv, !mapv_mapv. apply mapv_ext. intros sb. symmetry. apply counter_tick, HT.
    + intros k'. unfold rd_of. cbn [subs unreg]. rewrite alookup_mapv, Hrd. unfold rd_of.
      destruct (alookup k' (subs sp)) as [sb|]; cbn [option_map]; [rewrite flag_tick|]; reflexivity.
  - (* HAdv *)
    split; [reflexivity|]. constructor; assumption.
  - split; [|exact HR]. cbn [snd]. f_equal. apply alive_agree; assumption.
  - split; [|exact HR]. cbn [snd]. f_equal. apply ready_agree; assumption.
Qed.

Lemma run_refines T ops : forall s sp,
  0 <= T -> refines T s sp -> hrun T s ops = srun T sp ops /\ refines T (hfinal T s ops) (sfinal T sp ops).
Proof.
  induction ops as [|o r IH]; intros s sp HT HR; cbn [hrun srun hfinal sfinal]; [split; [reflexivity|exact HR]|].
  destruct (step_refines T s sp o HT HR) as [Hout HR'].
  destruct (hstep T s o) as [s' out] eqn:E1. destruct (sstep T sp o) as [sp' out'] eqn:E2.
  cbn [fst snd] in *. subst out'. destruct (IH s' sp' HT HR') as [H1 H2].
  split; [f_equal; exact H1|exact H2].
Qed.

Theorem health_refines_spec T t0 ops :
  0 <= T -> hrun T hinit ops = srun T (sinit T t0) ops.
Proof. intros HT. apply run_refines; [exact HT|apply refines_init]. Qed.

(* tick-periodic histories: the next tick ([nt]) is at most T away, and due between n and n+1 periods after a
   report that has seen n ticks *)
Definition timely (T now nt : Z) (sb : sub) : Prop :=
  match s_rep sb with
  | Some (_, n, r) => r <= now /\ Z.of_N n * T <= nt - r <= (Z.of_N n + 1) * T
  | None => True
  end.
Definition tick_inv (T : Z) (sp : hspec) : Prop :=
  h_now sp <= h_nt sp <= h_now sp + T /\
  Forall (fun kv => timely T (h_now sp) (h_nt sp) (snd kv)) (subs sp).

Lemma tick_inv_init T t0 : 0 <= T -> tick_inv T (sinit T t0).
Proof. intros HT. split; cbn; [lia|constructor]. Qed.

Lemma tick_inv_step T sp o : 0 <= T -> op_wf sp o = true -> tick_inv T sp -> tick_inv T (fst (sstep T sp o)).
Proof.
  intros HT Hwf HI.
  destruct o as [k to|k|k b| |d| |]; cbn [sstep fst op_wf] in *; try exact HI; destruct HI as [Hc Hs].
  - split; [exact Hc|]. constructor; [exact I|exact (incl_Forall (incl_aremove k _) Hs)].
  - split; [exact Hc|exact (incl_Forall (incl_aremove k _) Hs)].
  - destruct (alookup k (subs sp)) as [sb0|]; cbn [fst]; [|split; assumption].
    split; [exact Hc|]. constructor; [|exact (incl_Forall (incl_aremove k _) Hs)].
    unfold timely. cbn [snd s_rep h_now h_nt Z.of_N]. lia.
  - apply Z.eqb_eq in Hwf. split; [cbn [h_now h_nt]; lia|]. cbn [subs h_now h_nt].
    rewrite Forall_map. revert Hs. apply Forall_impl. intros [k sb]. unfold timely, tick_sub. cbn [snd s_rep].
    destruct (s_rep sb) as [[[b n] r]|]; [rewrite N2Z.inj_succ; lia|trivial].
  - apply andb_true_iff in Hwf as [Hd Hle]. apply Z.leb_le in Hd, Hle. split; [cbn [h_now h_nt]; lia|].
    revert Hs. apply Forall_impl. intros [k sb]. unfold timely. cbn [snd h_now h_nt].
    destruct (s_rep sb) as [[[b n] r]|]; [lia|trivial].
Qed.

Lemma tick_inv_run T ops : forall sp, 0 <= T -> wf_from T sp ops = true -> tick_inv T sp -> tick_inv T (sfinal T sp ops).
Proof.
  induction ops as [|o r IH]; intros sp HT Hwf HI; cbn [sfinal wf_from] in *; [exact HI|].
  apply andb_true_iff in Hwf as [Ho Hr].
  apply IH; [exact HT|exact Hr|apply tick_inv_step; assumption].
Qed.

Lemma ticks_track_age T sp k sb b n r :
  tick_inv T sp -> alookup k (subs sp) = Some sb -> s_rep sb = Some (b, n, r) ->
  h_now sp - r - T <= Z.of_N n * T <= h_now sp - r + T.
Proof.
  intros [Hc Hs] Hl Hr. rewrite Forall_forall in Hs. specialize (Hs _ (alookup_In _ _ _ Hl)).
  unfold timely in Hs. cbn [snd] in Hs. rewrite Hr in Hs. lia.
Qed.

Lemma timed_fresh T sp k sb b n r :
  tick_inv T sp -> alookup k (subs sp) = Some sb -> s_rep sb = Some (b, n, r) ->
  h_now sp - r < s_to sb - T -> fresh_sub T sb = true /\ dead_sub T sb = false.
Proof.
  intros HI Hl Hr Hgap. pose proof (ticks_track_age T sp k sb b n r HI Hl Hr).
  unfold fresh_sub, dead_sub. rewrite Hr. split.
  - apply Z.ltb_lt. lia.
  - apply andb_false_iff. right. apply Z.leb_gt. lia.
Qed.

Lemma timed_dead T sp k sb b n r :
  tick_inv T sp -> alookup k (subs sp) = Some sb -> s_rep sb = Some (b, n, r) ->
  0 <= s_to sb -> h_now sp - r > s_to sb + T -> dead_sub T sb = true /\ fresh_sub T sb = false.
Proof.
  intros HI Hl Hr Hto Hgap. pose proof (ticks_track_age T sp k sb b n r HI Hl Hr).
  unfold fresh_sub, dead_sub. rewrite Hr. split.
  - apply andb_true_iff. split; apply Z.leb_le; lia.
  - apply Z.ltb_ge. lia.
Qed.

Section Final.
  Variables (T t0 : Z) (ops : list hop).
  Hypothesis HT : 0 <= T.
  Hypothesis Hwf : wf T t0 ops = true.
  Let s := hfinal T hinit ops.
  Let sp := sfinal T (sinit T t0) ops.

  Lemma final_refines : refines T s sp.
  Proof. apply run_refines; [exact HT|apply refines_init]. Qed.

  Lemma final_tick_inv : tick_inv T sp.
  Proof. apply tick_inv_run; [exact HT|exact Hwf|apply tick_inv_init; exact HT]. Qed.

  Lemma final_counter k sb : alookup k (subs sp) = Some sb -> alookup k (timeLeft s) = Some (counter T sb).
  Proof. intros Hl. rewrite (rf_tl final_refines), alookup_mapv, Hl. reflexivity. Qed.

  Theorem never_dead_sub k sb b n r :
    alookup k (subs sp) = Some sb -> s_rep sb = Some (b, n, r) ->
    h_now sp - r < s_to sb - T ->
    exists c, alookup k (timeLeft s) = Some c /\ 0 < c.
  Proof.
    intros Hl Hr Hgap. exists (counter T sb). split; [apply final_counter, Hl|].
    apply Z.ltb_lt. rewrite counter_pos by exact HT.
    apply (timed_fresh T sp k sb b n r final_tick_inv Hl Hr Hgap).
  Qed.

  Theorem never_dead :
    (forall k sb b n r, alookup k (subs sp) = Some sb -> s_rep sb = Some (b, n, r) ->
                        h_now sp - r < s_to sb - T) ->
    check_alive s = true.
  Proof.
    intros Hall. rewrite (alive_agree T s sp HT final_refines).
    apply (forallb_alookup _ _ (rf_nd_sb final_refines)). intros k sb Hl. cbn [snd].
    destruct (s_rep sb) as [[[b n] r]|] eqn:Hr.
    - destruct (timed_fresh T sp k sb b n r final_tick_inv Hl Hr (Hall k sb b n r Hl Hr)) as [_ Hd].
      rewrite Hd. reflexivity.
    - unfold dead_sub. rewrite Hr. reflexivity.
  Qed.

  Theorem dead_after k sb b n r :
    alookup k (subs sp) = Some sb -> s_rep sb = Some (b, n, r) ->
    0 <= s_to sb -> h_now sp - r > s_to sb + T ->
    alookup k (timeLeft s) = Some 0 /\ check_alive s = false /\ check_ready s = false.
  Proof.
    intros Hl Hr Hto Hgap.
    destruct (timed_dead T sp k sb b n r final_tick_inv Hl Hr Hto Hgap) as [Hd Hf].
    split; [|split].
    - rewrite (final_counter k sb Hl). f_equal. apply Z.eqb_eq. rewrite counter_zero by exact HT. exact Hd.
    - rewrite (alive_agree T s sp HT final_refines). apply (forallb_alookup_false _ k sb _ Hl).
      cbn [snd]. rewrite Hd. reflexivity.
    - rewrite (ready_agree T s sp HT final_refines). unfold spec_ready.
      rewrite (forallb_alookup_false _ k sb _ Hl); [apply andb_false_r|].
      cbn [snd]. rewrite Hf. reflexivity.
  Qed.

  (* rests on the refinement alone, so it holds of every history, tick-periodic or not *)
  Theorem ready_iff :
    check_ready s = true <->
    (subs sp <> [] /\ unreg sp = [] /\
     forall k sb, alookup k (subs sp) = Some sb ->
       exists b n r, s_rep sb = Some (b, n, r) /\ b = true /\ Z.of_N n * T < s_to sb).
  Proof.
    rewrite (ready_agree T s sp HT final_refines). unfold spec_ready.
    rewrite !andb_true_iff, (forallb_alookup _ _ (rf_nd_sb final_refines)). cbn [snd].
    split.
    - intros [[Hs Hu] Hall]. split; [|split].
      + destruct (subs sp); discriminate.
      + destruct (unreg sp); [reflexivity|discriminate].
      + intros k sb Hl. specialize (Hall k sb Hl). apply andb_true_iff in Hall.
        destruct Hall as [Hf Hb]. unfold fresh_sub, flag_sub in *.
        destruct (s_rep sb) as [[[b n] r]|]; [|discriminate].
        exists b, n, r. split; [reflexivity|]. split; [exact Hb|apply Z.ltb_lt; exact Hf].
    - intros (Hs & Hu & Hall). split; [split|].
      + destruct (subs sp); [congruence|reflexivity].
      + rewrite Hu. reflexivity.
      + intros k sb Hl. destruct (Hall k sb Hl) as (b & n & r & Hr & Hb & Hlt).
        unfold fresh_sub, flag_sub. rewrite Hr. apply andb_true_iff. split; [apply Z.ltb_lt; exact Hlt|exact Hb].
  Qed.

  Theorem ready_when_fresh :
    subs sp <> [] -> unreg sp = [] ->
    (forall k sb, alookup k (subs sp) = Some sb ->
       exists n r, s_rep sb = Some (true, n, r) /\ h_now sp - r < s_to sb - T) ->
    check_ready s = true.
  Proof.
    intros Hs Hu Hall. apply ready_iff. split; [exact Hs|]. split; [exact Hu|].
    intros k sb Hl. destruct (Hall k sb Hl) as (n & r & Hr & Hgap).
    exists true, n, r. split; [exact Hr|]. split; [reflexivity|].
    pose proof (ticks_track_age T sp k sb true n r final_tick_inv Hl Hr). lia.
  Qed.
End Final.

(* the specification state means what its field names say *)
Definition touches (k : N) (o : hop) : bool :=
  match o with HReg k' _ | HUnreg k' | HReady k' _ => N.eqb k k' | _ => false end.
Fixpoint nticks (ops : list hop) : N :=
  match ops with [] => 0%N | HTick :: r => N.succ (nticks r) | _ :: r => nticks r end.
Fixpoint elapsed (ops : list hop) : Z :=
  match ops with [] => 0 | HAdv d :: r => d + elapsed r | _ :: r => elapsed r end.

Lemma sfinal_app T ops1 : forall ops2 sp,
  sfinal T sp (ops1 ++ ops2) = sfinal T (sfinal T sp ops1) ops2.
Proof. induction ops1 as [|o r IH]; intros ops2 sp; cbn [app sfinal]; [reflexivity|apply IH]. Qed.

Lemma h_now_sfinal T ops : forall sp, h_now (sfinal T sp ops) = h_now sp + elapsed ops.
Proof.
  induction ops as [|o rest IH]; intros sp; cbn [sfinal elapsed]; [lia|]. rewrite IH.
  destruct o as [k to|k|k b| |d| |]; cbn [sstep]; try destruct (alookup k (subs sp)); cbn [fst h_now]; lia.
Qed.

Lemma spec_untouched T k to b r : forall ops sp n,
  existsb (touches k) ops = false ->
  alookup k (subs sp) = Some {| s_to := to; s_rep := Some (b, n, r) |} ->
  alookup k (subs (sfinal T sp ops)) = Some {| s_to := to; s_rep := Some (b, (n + nticks ops)%N, r) |}.
Proof.
  induction ops as [|o rest IH]; intros sp n Hex Hl.
  - cbn [sfinal nticks]. rewrite N.add_0_r. exact Hl.
  - cbn [existsb] in Hex. apply orb_false_iff in Hex. destruct Hex as [Ho Hrest].
    destruct o as [k' to'|k'|k' b'| |d| |]; cbn [touches] in Ho; cbn [sfinal nticks];
      rewrite ?sstep_tick (* HTick in its mapv form *); cbn [sstep]; try (apply IH; assumption).
    + apply IH; [exact Hrest|]. cbn [fst subs]. rewrite alookup_aset, Ho. exact Hl.
    + apply IH; [exact Hrest|]. cbn [fst subs]. rewrite alookup_aremove, Ho. exact Hl.
    + destruct (alookup k' (subs sp)); apply IH; try assumption.
      cbn [fst subs]. rewrite alookup_aset, Ho. exact Hl.
    + rewrite N.add_succ_r, <- N.add_succ_l. apply IH; [exact Hrest|].
      cbn [fst subs]. rewrite alookup_mapv, Hl. reflexivity.
Qed.

Theorem spec_last_report T t0 pre post k b sb :
  alookup k (subs (sfinal T (sinit T t0) pre)) = Some sb ->
  existsb (touches k) post = false ->
  let sp := sfinal T (sinit T t0) (pre ++ HReady k b :: post) in
  alookup k (subs sp) =
    Some {| s_to := s_to sb; s_rep := Some (b, nticks post, h_now (sfinal T (sinit T t0) pre)) |} /\
  h_now sp - h_now (sfinal T (sinit T t0) pre) = elapsed post.
Proof.
  intros Hl Hpost sp. subst sp. rewrite sfinal_app. cbn [sfinal sstep]. rewrite Hl. split.
  - apply (spec_untouched T k (s_to sb) b _ post _ 0%N Hpost). apply alookup_aset_eq.
  - rewrite h_now_sfinal. cbn [fst h_now]. lia.
Qed.
