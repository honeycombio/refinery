(* C22 for the text formats (integer epoch, RFC 3339).  The client renders fixed-width decimal fields ([digitsZ]) and getEventTime reads them back
   ([read_num]).  For RFC 3339 the calendar conversion has to be inverted as well: the year by linear
   arithmetic over its floor divisions, month and day by a table of the 366 days of a year. *)
From Refinery Require Import Lib.Base Model.Timestamp.
Local Open Scope Z_scope.

Lemma digit_val_char d : 0 <= d <= 9 -> digit_val (digit_char d) = Some d.
Proof.
  intros H. unfold digit_val, digit_char.
  rewrite N_ascii_embedding, Z2N.id by lia.
  replace ((48 <=? d + 48) && (d + 48 <=? 57)) with true by lia. f_equal. lia.
Qed.

Lemma is_digit_val c : is_digit c = true -> exists d, digit_val c = Some d.
Proof. unfold is_digit. destruct (digit_val c) as [d|]; [eauto|discriminate]. Qed.

Lemma pow10_pos w : 0 < 10 ^ Z.of_nat w.
Proof. apply Z.pow_pos_nonneg; lia. Qed.

Lemma pow10_succ w : 10 ^ Z.of_nat (S w) = 10 * 10 ^ Z.of_nat w.
Proof. rewrite Nat2Z.inj_succ, Z.pow_succ_r by lia. reflexivity. Qed.

Lemma digitsZ_S w n :
  digitsZ (S w) n = digit_char (n / 10 ^ Z.of_nat w) :: digitsZ w (n mod 10 ^ Z.of_nat w).
Proof. reflexivity. Qed.

Lemma digitsZ_length w : forall n, length (digitsZ w n) = w.
Proof. induction w as [|w IH]; intros n; [reflexivity|]. rewrite digitsZ_S. cbn [length]. rewrite IH. reflexivity. Qed.

Lemma lead_digit w n :
  0 <= n < 10 ^ Z.of_nat (S w) ->
  digit_val (digit_char (n / 10 ^ Z.of_nat w)) = Some (n / 10 ^ Z.of_nat w).
Proof.
  intros H. rewrite pow10_succ in H. pose proof (pow10_pos w).
  apply digit_val_char. split; [apply Z.div_pos|apply Z.lt_succ_r, Z.div_lt_upper_bound]; lia.
Qed.

Lemma read_num_digits w : forall n acc rest,
  0 <= n < 10 ^ Z.of_nat w ->
  read_num w acc (digitsZ w n ++ rest) = Some (acc * 10 ^ Z.of_nat w + n, rest).
Proof.
  induction w as [|w IH]; intros n acc rest H.
  - cbn [digitsZ app read_num]. do 2 f_equal. lia.
  - rewrite digitsZ_S. cbn [app read_num].
    rewrite lead_digit by exact H.
    pose proof (pow10_pos w) as Hp.
    rewrite IH by (apply Z.mod_pos_bound; exact Hp).
    rewrite pow10_succ. do 2 f_equal.
    pose proof (Z_div_mod_eq_full n (10 ^ Z.of_nat w)). lia.
Qed.

(* 0 * 10 ^ w + n computes to n *)
Lemma read_num0 w n rest :
  0 <= n < 10 ^ Z.of_nat w -> read_num w 0 (digitsZ w n ++ rest) = Some (n, rest).
Proof. apply read_num_digits. Qed.

Lemma read_num0_nil w n :
  0 <= n < 10 ^ Z.of_nat w -> read_num w 0 (digitsZ w n) = Some (n, []).
Proof. rewrite <- (app_nil_r (digitsZ w n)) at 1. apply read_num0. Qed.

Lemma digitsZ_all_digits w : forall n,
  0 <= n < 10 ^ Z.of_nat w -> Forall (fun c => is_digit c = true) (digitsZ w n).
Proof.
  induction w as [|w IH]; intros n H; [constructor|].
  rewrite digitsZ_S. constructor.
  - unfold is_digit. rewrite lead_digit by exact H. reflexivity.
  - apply IH. apply Z.mod_pos_bound. apply pow10_pos.
Qed.

Lemma span_digits_app ds c rest :
  Forall (fun x => is_digit x = true) ds -> is_digit c = false ->
  span_digits (ds ++ c :: rest) = (ds, c :: rest).
Proof.
  intros Hd Hc. induction Hd as [|x l Hx Hl IH]; cbn [app span_digits].
  - rewrite Hc. reflexivity.
  - rewrite Hx, IH. reflexivity.
Qed.

Lemma expect_cons c l : expect c (c :: l) = Some l.
Proof. cbn [expect]. rewrite Ascii.eqb_refl. reflexivity. Qed.

(* The digits a client writes after the seconds: [nsec] cut to [k] places. *)
Lemma frac_bounds k nsec :
  (k <= 9)%nat -> 0 <= nsec < 10 ^ 9 ->
  0 <= nsec / 10 ^ (9 - Z.of_nat k) < 10 ^ Z.of_nat k.
Proof.
  intros Hk Hn.
  assert (Hp : 0 < 10 ^ (9 - Z.of_nat k)) by (apply Z.pow_pos_nonneg; lia).
  split; [apply Z.div_pos; lia|].
  apply Z.div_lt_upper_bound; [exact Hp|].
  rewrite <- Z.pow_add_r by lia. replace (9 - Z.of_nat k + Z.of_nat k) with 9 by lia. lia.
Qed.

Lemma frac_exact k sec nsec :
  has_precision k (sec, nsec) -> nsec / 10 ^ (9 - Z.of_nat k) * 10 ^ (9 - Z.of_nat k) = nsec.
Proof.
  unfold has_precision. cbn [snd]. pose proof (Z_div_mod_eq_full nsec (10 ^ (9 - Z.of_nat k))). lia.
Qed.

Lemma get_event_time_rfc c l t : parse_rfc l = Some t -> get_event_time c l = Some t.
Proof. intros H. destruct l; [discriminate H|]. unfold get_event_time. rewrite H. reflexivity. Qed.

Lemma get_event_time_epoch l :
  parse_rfc l = None -> get_event_time std_cfg l = parse_epoch_digits std_cfg l.
Proof. intros H. destruct l; [reflexivity|]. unfold get_event_time. rewrite H. reflexivity. Qed.

(* parse_rfc reads four digits and then wants a '-' *)
Lemma parse_rfc_digit_string l :
  Forall (fun c => is_digit c = true) l -> (5 <= length l)%nat -> parse_rfc l = None.
Proof.
  intros Hf Hl.
  destruct l as [|c0 [|c1 [|c2 [|c3 [|c4 r]]]]]; cbn [length] in Hl; try lia.
  repeat (apply Forall_cons_iff in Hf as [? Hf]). unfold is_digit in *.
  unfold parse_rfc. cbn [read_num].
  destruct (digit_val c0), (digit_val c1), (digit_val c2), (digit_val c3); try discriminate.
  cbn [expect]. destruct (Ascii.eqb_spec c4 "-") as [->|]; [discriminate|reflexivity].
Qed.

Lemma parse_epoch_render k sec f :
  (k <= 9)%nat -> 0 <= sec < 10 ^ 10 -> 0 <= f < 10 ^ Z.of_nat k ->
  parse_epoch_digits std_cfg (digitsZ 10 sec ++ digitsZ k f) = Some (sec, f * 10 ^ (9 - Z.of_nat k)).
Proof.
  intros Hk Hs Hf. unfold parse_epoch_digits. rewrite app_length, !digitsZ_length, Nat2Z.inj_add.
  change (Z.of_nat 10) with 10. cbn [std_cfg min_digits max_digits sec_digits pad_digits].
  destruct (_ || _) eqn:E; [lia|]. change (Z.to_nat 10) with 10%nat.
  rewrite read_num0, digitsZ_length, read_num0_nil by lia.
  replace (19 - (10 + Z.of_nat k)) with (9 - Z.of_nat k) by lia. reflexivity.
Qed.

Lemma epoch_exact : forall k sec nsec,
  (k <= 9)%nat -> 0 <= sec < 10 ^ 10 -> 0 <= nsec < 10 ^ 9 -> has_precision k (sec, nsec) ->
  get_event_time std_cfg (render_epoch k (sec, nsec)) = Some (sec, nsec).
Proof.
  intros k sec nsec Hk Hs Hn Hp. pose proof (frac_bounds k nsec Hk Hn) as Hf.
  unfold render_epoch. cbn [fst snd].
  rewrite get_event_time_epoch.
  - rewrite parse_epoch_render, (frac_exact k sec nsec Hp) by assumption. reflexivity.
  - apply parse_rfc_digit_string.
    + apply Forall_app. split; apply digitsZ_all_digits; [lia|exact Hf].
    + rewrite app_length, !digitsZ_length. lia.
Qed.

(* civil_from_days splits a day number into a 400-year era, the day of the era, the year of the era
   (years starting on 1 March, so that the leap day comes last) and the day of that year, from which
   month and day follow by the 153-days-per-5-months rule. *)
Definition era (z : Z) : Z := (z + 719468) / 146097.
Definition doe (z : Z) : Z := z + 719468 - era z * 146097.
Definition yoe_of (d : Z) : Z := (d - d / 1460 + d / 36524 - d / 146096) / 365.
Definition year_start (yo : Z) : Z := 365 * yo + yo / 4 - yo / 100.
Definition month_day (dy : Z) : Z * Z :=
  let mp := (5 * dy + 2) / 153 in (if mp <? 10 then mp + 3 else mp - 9, dy - (153 * mp + 2) / 5 + 1).

Lemma civil_from_days_eq z :
  civil_from_days z =
  let yo := yoe_of (doe z) in
  let '(m, d) := month_day (doe z - year_start yo) in
  let y := yo + era z * 400 in (if m <=? 2 then y + 1 else y, m, d).
Proof.
  (* both sides unfold to the same term; left to itself the conversion starts dividing *)
  cbv beta zeta iota delta [civil_from_days month_day doe era yoe_of year_start]. reflexivity.
Qed.

Lemma doe_range z : 0 <= doe z < 146097.
Proof. unfold doe, era. Z.div_mod_to_equations. lia. Qed.

Definition dim (leap : bool) (m : Z) : Z :=
  if m =? 2 then (if leap then 29 else 28)
  else if (m =? 4) || (m =? 6) || (m =? 9) || (m =? 11) then 30 else 31.

Lemma days_in_month_dim y m : days_in_month y m = dim (is_leap y) m.
Proof. reflexivity. Qed.

Lemma dim_bounds leap m : dim false m <= dim leap m <= 31.
Proof. unfold dim. destruct leap, (m =? 2); try lia; destruct (_ || _); lia. Qed.

Lemma days_in_month_le y m : days_in_month y m <= 31.
Proof. rewrite days_in_month_dim. apply dim_bounds. Qed.

Lemma dim_not_feb l1 l2 m : m <> 2 -> dim l1 m = dim l2 m.
Proof. intros H. unfold dim. destruct (Z.eqb_spec m 2); [contradiction|reflexivity]. Qed.

(* day [dy] of a March-based year is a date of the calendar, and the month arithmetic of
   days_from_civil leads back to it *)
Definition month_day_ok (leap : bool) (dy : Z) : bool :=
  let '(m, d) := month_day dy in
  (1 <=? m) && (m <=? 12) && (1 <=? d) && (d <=? dim leap m)
  && ((153 * (if m <=? 2 then m + 9 else m - 3) + 2) / 5 + d - 1 =? dy).

Lemma month_table :
  forallb (fun n => month_day_ok false (Z.of_nat n)) (seq 0 365) && month_day_ok true 365 = true.
Proof. vm_compute. reflexivity. Qed.

Lemma month_day_spec (leap : bool) dy :
  0 <= dy < (if leap then 366 else 365) -> month_day_ok leap dy = true.
Proof.
  intros H. pose proof month_table as T. apply andb_true_iff in T. destruct T as [T T365].
  assert (dy = 365 /\ leap = true \/ dy < 365) as [[-> ->]|Hlt] by (destruct leap; lia); [exact T365|].
  rewrite forallb_forall in T. specialize (T (Z.to_nat dy)). rewrite Z2Nat.id, in_seq in T by lia.
  (* a date of the common year is a date of the leap year *)
  unfold month_day_ok in *. destruct (month_day dy) as [m d]. pose proof (dim_bounds leap m). lia.
Qed.

Lemma days_from_civil_march e yo y m d :
  0 <= yo < 400 -> (if m <=? 2 then y - 1 else y) = yo + e * 400 ->
  days_from_civil y m d =
  e * 146097 + (year_start yo + ((153 * (if m <=? 2 then m + 9 else m - 3) + 2) / 5 + d - 1)) - 719468.
Proof.
  intros Hyo Hy. unfold days_from_civil, year_start. rewrite Hy. cbv zeta.
  replace ((yo + e * 400) / 400) with e by (Z.div_mod_to_equations; lia).
  replace (yo + e * 400 - e * 400) with yo by lia. lia.
Qed.

Lemma is_leap_400 y e : is_leap (y + e * 400) = is_leap y.
Proof.
  unfold is_leap.
  replace ((y + e * 400) mod 4) with (y mod 4) by (Z.div_mod_to_equations; lia).
  replace ((y + e * 400) mod 100) with (y mod 100) by (Z.div_mod_to_equations; lia).
  replace ((y + e * 400) mod 400) with (y mod 400) by (Z.div_mod_to_equations; lia).
  reflexivity.
Qed.

(* [yoe_of] inverts [year_start] on the days of an era: the March-based year it finds begins on or
   before the day and, with the leap day of the calendar year that ends it, is long enough to hold it. *)
Lemma yoe_spec d :
  0 <= d < 146097 ->
  0 <= yoe_of d < 400 /\
  0 <= d - year_start (yoe_of d) < (if is_leap (yoe_of d + 1) then 366 else 365).
Proof.
  intros H. unfold year_start. set (yo := yoe_of d).
  assert (Hyo : 0 <= yo < 400 /\ 365 * yo + yo / 4 - yo / 100 <= d
                < 365 * (yo + 1) + (yo + 1) / 4 - (yo + 1) / 100 + (yo + 1) / 400).
  { unfold yo, yoe_of. Z.div_mod_to_equations. lia. }
  (* the difference of the two year starts is 365 or 366 according to the leap rule *)
  clearbody yo. unfold is_leap. destruct (_ || _) eqn:L; Z.div_mod_to_equations; lia.
Qed.

(* The Gregorian round trip; the year lies in the 400 years that begin with the era (January and
   February of the last of them belong to the calendar year after). *)
Definition civil_spec (z : Z) (c : Z * Z * Z) : Prop :=
  let '(y, m, d) := c in
  era z * 400 <= y <= era z * 400 + 400 /\
  1 <= m <= 12 /\ 1 <= d <= days_in_month y m /\ days_from_civil y m d = z.

Theorem civil_from_days_spec z : civil_spec z (civil_from_days z).
Proof.
  rewrite civil_from_days_eq. set (e := era z). set (yo := yoe_of (doe z)). cbv zeta.
  destruct (yoe_spec (doe z) (doe_range z)) as [Hyo Hdy]. fold yo in Hyo, Hdy.
  rewrite <- (is_leap_400 _ e) in Hdy.
  pose proof (month_day_spec _ _ Hdy) as M. unfold month_day_ok in M.
  destruct (month_day (doe z - year_start yo)) as [m d]. unfold civil_spec. fold e.
  rewrite (days_from_civil_march e yo), days_in_month_dim by (destruct (m <=? 2); lia).
  assert (doe z = z + 719468 - e * 146097) by reflexivity.
  destruct (Z.leb_spec m 2).
  - replace (yo + e * 400 + 1) with (yo + 1 + e * 400) by lia. lia.
  - rewrite (dim_not_feb _ (is_leap (yo + 1 + e * 400))) by lia. lia.
Qed.

Lemma parse_zone_offset (neg : bool) hh mm :
  0 <= hh < 24 -> 0 <= mm < 60 ->
  parse_zone ((if neg then "-" else "+")%char :: digitsZ 2 hh ++ ":"%char :: digitsZ 2 mm) =
  Some ((if neg then -1 else 1) * (hh * 3600 + mm * 60)).
Proof.
  intros Hh Hm. destruct neg; cbn [parse_zone Ascii.eqb Bool.eqb].
  all: rewrite read_num0, expect_cons, read_num0_nil by lia.
  all: replace ((hh <? 24) && (mm <? 60)) with true by lia; reflexivity.
Qed.

Lemma parse_zone_render off zulu :
  -1440 < off < 1440 -> parse_zone (render_zone off zulu) = Some (off * 60).
Proof.
  intros H. unfold render_zone.
  destruct (zulu && (off =? 0)) eqn:Ez; [replace off with 0 by lia; reflexivity|].
  etransitivity; [apply parse_zone_offset; Z.div_mod_to_equations; lia|].
  f_equal. destruct (Z.ltb_spec off 0); Z.div_mod_to_equations; lia.
Qed.

Lemma render_zone_head off zulu :
  exists c r, render_zone off zulu = c :: r /\ is_digit c = false /\ Ascii.eqb c "." = false.
Proof.
  unfold render_zone. destruct (zulu && (off =? 0)); [|destruct (off <? 0)]; eexists _, _; repeat split.
Qed.

Lemma sod_parts sod :
  0 <= sod < 86400 ->
  0 <= sod / 3600 < 24 /\ 0 <= sod mod 3600 / 60 < 60 /\ 0 <= sod mod 60 < 60 /\
  sod / 3600 * 3600 + sod mod 3600 / 60 * 60 + sod mod 60 = sod.
Proof. intros H. Z.div_mod_to_equations. lia. Qed.

Lemma parse_rfc_render y mo d h mi s k f off zulu :
  0 <= y < 10000 -> 1 <= mo <= 12 -> 1 <= d <= days_in_month y mo ->
  0 <= h < 24 -> 0 <= mi < 60 -> 0 <= s < 60 ->
  (k <= 9)%nat -> 0 <= f < 10 ^ Z.of_nat k -> -1440 < off < 1440 ->
  parse_rfc (digitsZ 4 y ++ ["-"%char] ++ digitsZ 2 mo ++ ["-"%char] ++ digitsZ 2 d ++ ["T"%char]
             ++ digitsZ 2 h ++ [":"%char] ++ digitsZ 2 mi ++ [":"%char] ++ digitsZ 2 s
             ++ (match k with O => [] | _ => "."%char :: digitsZ k f end) ++ render_zone off zulu) =
  Some (days_from_civil y mo d * 86400 + h * 3600 + mi * 60 + s - off * 60, f * 10 ^ (9 - Z.of_nat k)).
Proof.
  intros Hy Hmo Hd Hh Hmi Hs Hk Hf Hoff.
  pose proof (days_in_month_le y mo).
  destruct (render_zone_head off zulu) as (zc & zr & Ezone & Hzd & Hzdot).
  unfold parse_rfc. cbn [app].
  do 5 (rewrite read_num0, expect_cons by lia). rewrite read_num0 by lia.
  replace (_ && (s <? 60)) with true by lia.
  destruct k as [|k'].
  - cbn [app]. rewrite Ezone, Hzdot, <- Ezone, parse_zone_render by exact Hoff.
    replace f with 0 by lia. reflexivity.
  - cbn [app]. rewrite Ascii.eqb_refl, Ezone, span_digits_app, <- Ezone, parse_zone_render
      by (try apply digitsZ_all_digits; assumption).
    rewrite digitsZ_S at 1. unfold frac_nsec.
    rewrite digitsZ_length, Nat.min_r, read_num0_nil by assumption. reflexivity.
Qed.

Lemma rfc_exact : forall k off zulu sec nsec,
  (k <= 9)%nat -> -1440 < off < 1440 ->
  0 <= sec < 10 ^ 10 -> 0 <= nsec < 10 ^ 9 -> has_precision k (sec, nsec) ->
  get_event_time std_cfg (render_rfc k off zulu (sec, nsec)) = Some (sec, nsec).
Proof.
  intros k off zulu sec nsec Hk Hoff Hs Hn Hp.
  apply get_event_time_rfc. unfold render_rfc. cbn [fst snd].
  pose proof (civil_from_days_spec ((sec + off * 60) / 86400)) as Hc.
  destruct (civil_from_days _) as [[y m] d]. destruct Hc as (Hy & Hm & Hd & Hciv).
  (* the local days of these instants lie in the eras that begin in 1600 and 2000 *)
  assert (He : 4 <= era ((sec + off * 60) / 86400) <= 5) by (unfold era; Z.div_mod_to_equations; lia).
  assert (Hy4 : 0 <= y < 10000) by lia.
  destruct (sod_parts ((sec + off * 60) mod 86400)) as (Hh & Hmi & Hse & Hsum);
    [apply Z.mod_pos_bound; lia|].
  rewrite parse_rfc_render by (try apply frac_bounds; assumption).
  rewrite Hciv, (frac_exact k sec nsec Hp). do 2 f_equal. Z.div_mod_to_equations. lia.
Qed.
