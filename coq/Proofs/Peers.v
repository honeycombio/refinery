(* Peers: codec round trips, the node view refines the TTL liveness specification (via Proofs/TTL.v),
   and convergence of the view for every processing order within the delay bound. *)
From Refinery Require Import Lib.Base Model.TTL Proofs.TTL Model.Peers.

Lemma is_comma_true x : is_comma x = true <-> x = comma.
Proof. apply Ascii.eqb_eq. Qed.

Lemma split_last_none l : split_last l = None <-> ~ In comma l.
Proof.
  induction l as [|x r IH]; cbn [split_last In]; [tauto|].
  pose proof (is_comma_true x) as Hx.
  destruct (split_last r) as [[a b]|], (is_comma x); intuition congruence.
Qed.

Lemma split_last_app addr id : ~ In comma id -> split_last (addr ++ comma :: id) = Some (addr, id).
Proof.
  intros H. induction addr as [|x a IH]; cbn [app split_last].
  - apply split_last_none in H. rewrite H. unfold is_comma. rewrite Ascii.eqb_refl. reflexivity.
  - rewrite IH. reflexivity.
Qed.

Lemma split_last_inv l : forall a b, split_last l = Some (a, b) -> l = a ++ comma :: b /\ ~ In comma b.
Proof.
  induction l as [|x r IH]; intros a b; cbn [split_last]; [discriminate|].
  destruct (split_last r) as [[a' b']|] eqn:E.
  - intros [= <- <-]. destruct (IH a' b' eq_refl) as [-> Hn]. split; [reflexivity|exact Hn].
  - destruct (is_comma x) eqn:Ex; [|discriminate]. intros [= <- <-].
    apply is_comma_true in Ex. subst x. split; [reflexivity|apply split_last_none; exact E].
Qed.

Theorem codec_roundtrip a addr id :
  act_ok a = true -> ~ In comma id -> unmarshal (marshal a addr id) = Some (a, addr, id).
Proof.
  intros Ha Hid. unfold unmarshal, marshal. rewrite Ha, (split_last_app addr id Hid). reflexivity.
Qed.

Theorem codec_decode_encode msg a addr id :
  unmarshal msg = Some (a, addr, id) -> marshal a addr id = msg /\ act_ok a = true /\ ~ In comma id.
Proof.
  unfold unmarshal, marshal. destruct msg as [|x rest]; [discriminate|].
  destruct (act_ok x) eqn:Ha; [|discriminate].
  destruct (split_last rest) as [[ad i]|] eqn:E; [|discriminate].
  intros [= <- <- <-]. destruct (split_last_inv rest ad i E) as [-> Hn]. repeat split; assumption.
Qed.

Definition la (s : string) : list ascii := list_ascii_of_string s.

(* a decoder that splits at the first comma (unmarshal_first) cuts an address that contains one *)
Lemma codec_first_comma_refuted :
  unmarshal_first (marshal "R"%char (la "http://a,b:8081") (la "0123abcd")) =
    Some ("R"%char, la "http://a", la "b:8081,0123abcd").
Proof. vm_compute. reflexivity. Qed.

Lemma sstep_item_op ttl sp it :
  sstep ttl sp (item_op it) =
  ({| snow := snow sp;
      last := if i_reg it then aset (i_id it) (snow sp, i_addr it) (last sp) else aremove (i_id it) (last sp) |},
   ONone).
Proof. unfold item_op. destruct (i_reg it); reflexivity. Qed.

Lemma item_ops_ok items tau : forall nw, items_ok nw items tau = true -> ops_ok (item_ops nw items tau) = true.
Proof.
  unfold ops_ok. induction items as [|it r IH]; intros nw H; cbn [items_ok item_ops forallb op_ok] in *; [lia|].
  apply andb_true_iff in H as [H Hr]. rewrite (IH _ Hr), andb_true_r.
  unfold item_op. destruct (i_reg it); cbn [op_ok]; lia.
Qed.

Lemma srun_item_ops ttl items tau : forall sp,
  exists pre, srun ttl sp (item_ops (snow sp) items tau) =
    pre ++ [OVals (map (fun kv => (fst kv, snd (snd kv)))
                       (live_entries ttl {| snow := tau; last := last_map (last sp) items |}))].
Proof.
  induction items as [|it r IH]; intros sp; cbn [item_ops srun sstep last_map snow last].
  - exists [ONone]. replace (snow sp + (tau - snow sp)) with tau by lia. reflexivity.
  - rewrite sstep_item_op. cbn [snow last].
    replace (snow sp + (i_t it - snow sp)) with (i_t it) by lia.
    edestruct IH as [pre Hpre]. exists (ONone :: ONone :: pre). cbn [app]. do 2 f_equal.
    exact Hpre.
Qed.

Theorem view_refines_spec ttl t0 items tau :
  0 <= ttl -> items_ok t0 items tau = true ->
  get_peers ttl t0 items tau =
    match spec_listing ttl items tau with [] => None | l => Some l end.
Proof.
  intros Httl Hok. unfold get_peers, spec_listing.
  rewrite (ttl_refines_spec ttl t0 _ Httl (item_ops_ok items tau t0 Hok)).
  destruct (srun_item_ops ttl items tau (sinit t0)) as [pre Hpre]. cbn [sinit snow] in Hpre.
  rewrite Hpre, last_last. destruct (map _ _); reflexivity.
Qed.

Lemma alookup_item id it m :
  alookup id (if i_reg it then aset (i_id it) (i_t it, i_addr it) m else aremove (i_id it) m) =
  if N.eqb id (i_id it) then (if i_reg it then Some (i_t it, i_addr it) else None) else alookup id m.
Proof. destruct (i_reg it); [apply alookup_aset|apply alookup_aremove]. Qed.

Lemma NoDup_last_map items : forall m, NoDup (akeys m) -> NoDup (akeys (last_map m items)).
Proof.
  induction items as [|it r IH]; intros m H; cbn [last_map]; [exact H|].
  apply IH. destruct (i_reg it); [apply NoDup_akeys_aset|apply NoDup_akeys_aremove]; exact H.
Qed.

Lemma last_map_from id t a : forall items m,
  alookup id (last_map m items) = Some (t, a) ->
  alookup id m = Some (t, a) \/
  exists it, In it items /\ i_id it = id /\ i_reg it = true /\ i_t it = t /\ i_addr it = a.
Proof.
  induction items as [|x r IH]; intros m H; cbn [last_map] in H; [left; exact H|].
  destruct (IH _ H) as [Hm|(it & Hin & Hit)]; [|right; exists it; split; [right; exact Hin|exact Hit]].
  rewrite alookup_item in Hm. destruct (N.eqb_spec id (i_id x)) as [->|_]; [|left; exact Hm].
  destruct (i_reg x) eqn:Er; [|discriminate]. injection Hm as <- <-.
  right. exists x. repeat split; [left; reflexivity|exact Er].
Qed.

(* Either id is already registered with a at lo or later and the clock has passed lo, so that further
   registrations of a only move the entry later still; or an item of id published at lo or later,
   hence processed no earlier, is still to come. *)
Lemma last_map_registered id a lo tau : forall items nw m,
  items_ok nw items tau = true ->
  (forall it, In it items -> i_id it = id -> i_reg it = true /\ i_addr it = a) ->
  lo <= nw /\ (exists t, alookup id m = Some (t, a) /\ lo <= t) \/
  (exists it, In it items /\ i_id it = id /\ lo <= i_p it) ->
  exists t, alookup id (last_map m items) = Some (t, a) /\ lo <= t.
Proof.
  induction items as [|x r IH]; intros nw m Hok Hall H; cbn [last_map items_ok] in *.
  { destruct H as [[_ H]|(it & [] & _)]. exact H. }
  apply andb_true_iff in Hok as [Hx Hr].
  apply (IH (i_t x) _ Hr); [exact (fun it Hin => Hall it (or_intror Hin))|].
  destruct H as [[Hlo Hm]|(it & [<-|Hin] & Hid & Hp)]; [| |right; exists it; auto].
  - left. split; [lia|]. rewrite alookup_item. destruct (N.eqb_spec id (i_id x)) as [->|_]; [|exact Hm].
    destruct (Hall x (or_introl eq_refl) eq_refl) as [-> ->]. exists (i_t x). split; [reflexivity|lia].
  - left. split; [lia|]. rewrite alookup_item, Hid, N.eqb_refl.
    destruct (Hall x (or_introl eq_refl) Hid) as [-> ->]. exists (i_t x). split; [reflexivity|lia].
Qed.

Lemma spec_listing_In ttl items tau id a :
  In (id, a) (spec_listing ttl items tau) <->
  exists t, alookup id (last_map [] items) = Some (t, a) /\ tau <= t + ttl.
Proof.
  unfold spec_listing, live_entries, live. cbn [snow last].
  pose proof (NoDup_last_map items [] (NoDup_nil _)) as Hnd.
  rewrite in_map_iff. split.
  - intros ([k [t v]] & [= -> ->] & Hin). apply filter_In in Hin. destruct Hin as [Hin Hl].
    exists t. split; [apply In_alookup_NoDup; assumption|]. cbn [fst snd] in Hl. lia.
  - intros (t & Hl & Hle). exists (id, (t, a)). split; [reflexivity|]. apply filter_In.
    split; [apply alookup_In; exact Hl|]. cbn [fst snd]. lia.
Qed.

Lemma nonempty_in {A} (l : list A) : l <> [] -> exists x, In x l.
Proof. destruct l as [|x r]; [congruence|]. intros _. exists x. left. reflexivity. Qed.

Section Converge.
  Variables (ttl d imax T0 t0 tau : Z) (items : list item) (L : list N) (addr_of : N -> N).
  Hypothesis Hok : items_ok t0 items tau = true.              (* processed in time order; query last *)
  Hypothesis Hfit : imax + d <= ttl.                          (* refresh interval + delay fit in the TTL *)
  Hypothesis Hlate : T0 + d + ttl < tau.                      (* long enough after the last change *)
  (* every message is processed within d of being published *)
  Hypothesis Hdelay : forall it, In it items -> i_t it <= i_p it + d.
  (* live nodes: only registrations of their own address, and one published in the last d + imax
     (they publish at least every imax and what was published d ago has been processed) *)
  Hypothesis Hlive_only : forall it, In it items -> In (i_id it) L -> i_reg it = true /\ i_addr it = addr_of (i_id it).
  Hypothesis Hlive_fresh : forall id, In id L -> exists it, In it items /\ i_id it = id /\ tau - d - imax <= i_p it.
  Hypothesis Hdead : forall it, In it items -> ~ In (i_id it) L -> i_p it <= T0.

  Theorem peers_converge id a :
    In (id, a) (spec_listing ttl items tau) <-> In id L /\ a = addr_of id.
  Proof.
    rewrite spec_listing_In. split.
    - (* a listed entry was registered at most ttl ago: too late for a node outside L *)
      intros (t & Hl & Hle).
      destruct (last_map_from _ _ _ _ _ Hl) as [Hl'|(it & Hin & <- & _ & <- & <-)]; [discriminate|].
      destruct (in_dec N.eq_dec (i_id it) L) as [HL|HnL].
      + split; [exact HL|apply (Hlive_only it Hin HL)].
      + exfalso. pose proof (Hdead it Hin HnL). pose proof (Hdelay it Hin). lia.
    - intros [HL ->].
      destruct (last_map_registered id (addr_of id) (tau - d - imax) tau items t0 [] Hok)
        as (t & Hl & Hle).
      + intros it Hin <-. apply Hlive_only; assumption.
      + right. exact (Hlive_fresh id HL).
      + exists t. split; [exact Hl|lia].
  Qed.

  Theorem get_peers_converged :
    0 <= ttl -> L <> [] ->
    exists l, get_peers ttl t0 items tau = Some l /\
              forall id a, In (id, a) l <-> In id L /\ a = addr_of id.
  Proof.
    intros Httl HL. rewrite (view_refines_spec ttl t0 items tau Httl Hok).
    destruct (spec_listing ttl items tau) as [|x l] eqn:E.
    - exfalso. destruct (nonempty_in L HL) as [id Hid].
      apply (in_nil (a := (id, addr_of id))). rewrite <- E. apply peers_converge. split; [exact Hid|reflexivity].
    - exists (x :: l). split; [reflexivity|]. intros id a. rewrite <- E. apply peers_converge.
  Qed.
End Converge.
