(* Proofs about Model/Proxy.v (C37).  Both directions of the relay are [hset]s over a header map, so everything
   rests on the value of a lookup after a set ([hlookup_hset]). *)
From Refinery Require Import Lib.Base Gen.GenC37 Model.Proxy.

Lemma hlookup_hset m n v h : hlookup m (hset n v h) = if String.eqb m n then Some v else hlookup m h.
Proof.
  induction h as [|[k w] r IH]; cbn; [reflexivity|].
  destruct (String.eqb_spec n k) as [->|Hnk]; cbn.
  - destruct (String.eqb m k); reflexivity.
  - rewrite IH. destruct (String.eqb_spec m k) as [->|]; [|reflexivity].
    apply String.eqb_neq in Hnk. rewrite String.eqb_sym, Hnk. reflexivity.
Qed.

Lemma hlookup_notin n h : ~ In n (names h) -> hlookup n h = None.
Proof.
  induction h as [|[k w] r IH]; cbn; [reflexivity|]. intros H.
  destruct (String.eqb_spec n k) as [->|]; [tauto | apply IH; tauto].
Qed.

Lemma hlookup_join_all n h : hlookup n (join_all h) = option_map (fun vs => [joinc vs]) (hlookup n h).
Proof.
  induction h as [|[k w] r IH]; cbn; [reflexivity|].
  destruct (String.eqb n k); [reflexivity | exact IH].
Qed.

Lemma names_join_all h : names (join_all h) = names h.
Proof. unfold names, join_all. rewrite map_map. reflexivity. Qed.

Lemma names_hset_in n v h : In n (names h) -> names (hset n v h) = names h.
Proof.
  induction h as [|[k w] r IH]; cbn; [contradiction|].
  destruct (String.eqb_spec n k); cbn; [reflexivity|].
  intros [H|H]; [congruence | f_equal; apply IH, H].
Qed.

Lemma names_hset_notin n v h : ~ In n (names h) -> names (hset n v h) = names h ++ [n].
Proof.
  induction h as [|[k w] r IH]; cbn; [reflexivity|]. intros H.
  destruct (String.eqb_spec n k) as [->|]; [tauto|]. cbn. f_equal. apply IH. tauto.
Qed.

Lemma set_all_lookup_none src : forall dst n, hlookup n src = None -> hlookup n (set_all src dst) = hlookup n dst.
Proof.
  unfold set_all. induction src as [|[k v] r IH]; intros dst n H; cbn in *; [reflexivity|].
  destruct (String.eqb n k) eqn:E; [discriminate|]. rewrite (IH _ _ H), hlookup_hset, E. reflexivity.
Qed.

Lemma set_all_lookup_some src : forall dst n v, NoDup (names src) -> hlookup n src = Some v ->
  hlookup n (set_all src dst) = Some v.
Proof.
  unfold set_all. induction src as [|[k w] r IH]; intros dst n v Hnd Hl; cbn in *; [discriminate|].
  inversion Hnd as [|? ? Hnotin Hnd']; subst.
  destruct (String.eqb_spec n k) as [->|]; [|apply IH; assumption].
  injection Hl as ->. rewrite (set_all_lookup_none r _ k (hlookup_notin _ _ Hnotin)), hlookup_hset, String.eqb_refl.
  reflexivity.
Qed.

Theorem relay_req_xff p r : hlookup xff (q_hdrs (relay_req p r)) = Some [forwarded_for p r].
Proof. cbn [relay_req q_hdrs]. rewrite hlookup_hset, String.eqb_refl. reflexivity. Qed.

Lemma concat_single sep s : String.concat sep [s] = s.
Proof. reflexivity. Qed.

Theorem forwarded_for_all p r : pp_xff_all p = true ->
  forwarded_for p r =
  match hlookup xff (q_hdrs r) with
  | Some vs => if String.eqb (joincs vs) "" then q_remote r else (joincs vs ++ ", " ++ q_remote r)%string
  | None => q_remote r
  end.
Proof.
  intros H. unfold forwarded_for. rewrite H. destruct (hlookup xff (q_hdrs r)); reflexivity.
Qed.

(* [pinned_pparams] (Model/Proxy.v: the flags of the upstream revision the finding was made on) keeps only the
   first X-Forwarded-For value of the client *)
Lemma pinned_xff_refuted :
  let r := {| q_method := "GET"; q_target := "/1/markers/ds"; q_body := "";
              q_hdrs := [(xff, ["10.0.0.1"; "10.0.0.2"])]; q_remote := "192.0.2.1:1234" |}%string in
  forwarded_for pinned_pparams r = "10.0.0.1, 192.0.2.1:1234"%string.
Proof. vm_compute. reflexivity. Qed.
