(* The rules-sampler model refines the documented semantics of Model/RulesSpec.v: the per-operator
   closures compute the documented meaning of a condition, the two scope loops with their early exits
   and match counter compute the exists-span / forall-condition formulation, and the rule loop
   applies the first matching rule.  Last, the expected text of the Go arms the model transcribes. *)
From Refinery Require Import Lib.Base Model.Values Model.Rules Model.RulesSpec Gen.GenC08.
Local Open Scope string_scope.
Local Open Scope Z_scope.

Lemma string_compare_refl s : String.compare s s = Eq.
Proof.
  induction s as [|a r IH]; cbn [String.compare]; [reflexivity|].
  unfold Ascii.compare. rewrite N.compare_refl. exact IH.
Qed.

Lemma string_eqb_compare a b :
  String.eqb a b = match String.compare a b with Eq => true | _ => false end.
Proof.
  destruct (String.eqb_spec a b) as [->|Hne].
  - rewrite string_compare_refl. reflexivity.
  - destruct (String.compare a b) eqn:C; [|reflexivity|reflexivity].
    apply String.compare_eq_iff in C. contradiction.
Qed.

Lemma bool_eqb_compare a b : Bool.eqb a b = match Bool.compare a b with Eq => true | _ => false end.
Proof. destruct a, b; reflexivity. Qed.

Lemma dy_cmp_antisym a b : dy_cmp a b = CompOpp (dy_cmp b a).
Proof.
  destruct a as [m1 e1], b as [m2 e2]. unfold dy_cmp. cbv zeta.
  rewrite (Z.min_comm e2 e1). apply Z.compare_antisym.
Qed.

Lemma tv_eqb_str a b : tv_eqb (TStr a) (TStr b) = String.eqb a b.
Proof. unfold tv_eqb. cbn [tv_cmp]. symmetry. apply string_eqb_compare. Qed.

Lemma tv_eqb_int a b : tv_eqb (TInt a) (TInt b) = Z.eqb a b.
Proof. unfold tv_eqb. cbn [tv_cmp]. symmetry. apply Z.eqb_compare. Qed.

Lemma tv_eqb_float a b : tv_eqb (TFloat a) (TFloat b) = dy_eqb a b.
Proof. reflexivity. Qed.

Lemma filter_some_map_some {A B} (f : A -> B) (l : list A) :
  filter_some (map (fun x => Some (f x)) l) = map f l.
Proof. induction l as [|x r IH]; cbn [map filter_some]; [reflexivity|]. rewrite IH. reflexivity. Qed.

Lemma existsb_ext_eq {A} (p q : A -> bool) (l : list A) :
  (forall x, p x = q x) -> existsb p l = existsb q l.
Proof. intros H. induction l as [|x r IH]; cbn [existsb]; [reflexivity|]. rewrite H, IH. reflexivity. Qed.

Lemma existsb_none {A} (p : A -> bool) (l : list A) : (forall x, p x = false) -> existsb p l = false.
Proof. intros H. induction l as [|x r IH]; cbn [existsb]; [reflexivity|]. rewrite H. exact IH. Qed.

Lemma is_nil_true {A} (l : list A) : is_nil l = true <-> l = [].
Proof. destruct l; split; (reflexivity || discriminate). Qed.

Section RulesProofs.
  Variable fmtv : dy -> string.
  Variable parsef : string -> option dy.
  Variable rx : string -> option (string -> bool).

  Notation cmatch := (cmatch fmtv parsef rx).
  Notation doc_match := (doc_match fmtv parsef rx).
  Notation doc_present := (doc_present fmtv parsef rx).
  Notation cond_wf := (cond_wf fmtv parsef rx).

  (* Apart from exists and not-exists, every closure setMatchesFunction installs is false on an
     absent field (it tests `exists`, or converts the nil it was handed, which fails) and reads a
     present value only through convertToString, tryConvertToInt and tryConvertToFloat. *)
  Definition value_closure (f : option sval -> bool) : Prop :=
    f None = false /\
    forall v1 v2, sval_str fmtv v1 = sval_str fmtv v2 -> sval_int v1 = sval_int v2 ->
                  sval_float parsef v1 = sval_float parsef v2 -> f (Some v1) = f (Some v2).

  (* one arm [Some (fun ov => ...)]: on [Some v] the value occurs only under the three conversions *)
  Local Ltac closure_arm :=
    intros [= <-]; (split; [reflexivity|]); intros v1 v2 Hs Hi Hf;
    unfold with_int, with_float, sval_bool; cbn [vnil present andb]; rewrite ?Hs, ?Hi, ?Hf; reflexivity.

  Lemma set_compare_closure c f : set_compare fmtv parsef c = Some f -> value_closure f.
  Proof.
    unfold set_compare. destruct (c_dt c); try discriminate.
    - (* string *) destruct (c_op c); closure_arm.
    - destruct (cval_int (c_val c)); [|discriminate]. destruct (c_op c); closure_arm.
    - destruct (cval_float parsef (c_val c)); [|discriminate]. destruct (c_op c); closure_arm.
    - (* bool *) destruct (c_op c); closure_arm.
  Qed.

  Lemma set_stringop_closure c f : set_stringop fmtv c = Some f -> value_closure f.
  Proof. unfold set_stringop. destruct (c_op c); closure_arm. Qed.

  Lemma set_regex_closure c f : set_regex fmtv rx c = Some f -> value_closure f.
  Proof. unfold set_regex. destruct (rx _); closure_arm. Qed.

  Lemma set_in_closure c f : set_in fmtv parsef c = Some f -> value_closure f.
  Proof.
    unfold set_in. destruct (in_items (c_val c)) as [items|]; [|discriminate].
    destruct (in_matches fmtv parsef (c_dt c) items) as [m|] eqn:Em; [|discriminate].
    assert (Hm : value_closure m) by (revert Em; destruct (c_dt c); closure_arm).
    destruct (c_op c); intros [= <-]; [exact Hm|]. destruct Hm as [_ Hm].
    split; [reflexivity|]. intros v1 v2 Hs Hi Hf. rewrite (Hm v1 v2 Hs Hi Hf). reflexivity.
  Qed.

  Lemma matcher_closure c f :
    matcher fmtv parsef rx c = Some f ->
    match c_op c with
    | OpExists => forall ov, f ov = present ov
    | OpNotExists => forall ov, f ov = negb (present ov)
    | _ => value_closure f
    end.
  Proof.
    unfold matcher. destruct (init_conflict c); [discriminate|]. destruct (c_op c).
    1-6: apply set_compare_closure.
    1-3: apply set_stringop_closure.
    - (* OpExists *) intros [= <-] ov. reflexivity.
    - (* OpNotExists *) intros [= <-] ov. reflexivity.
    - (* OpHasRoot: Matches stays nil *) discriminate.
    - apply set_regex_closure.
    - apply set_in_closure.
    - apply set_in_closure.
    - (* OpUnknown: Init fails *) discriminate.
  Qed.

  Lemma cmatch_absent c : cmatch c None = true -> c_op c = OpNotExists.
  Proof.
    unfold Rules.cmatch. destruct (matcher fmtv parsef rx c) as [f|] eqn:M.
    - apply matcher_closure in M. destruct (c_op c); try reflexivity;
        try destruct M as [M _]; rewrite M; discriminate.
    - unfold cond_untyped. destruct (c_op c); (discriminate || reflexivity).
  Qed.

  Lemma cmatch_obs c v1 v2 :
    sval_str fmtv v1 = sval_str fmtv v2 ->
    sval_int v1 = sval_int v2 ->
    sval_float parsef v1 = sval_float parsef v2 ->
    compare_untyped v1 (c_val c) = compare_untyped v2 (c_val c) ->
    cmatch c (Some v1) = cmatch c (Some v2).
  Proof.
    intros Hs Hi Hf Hc. unfold Rules.cmatch. destruct (matcher fmtv parsef rx c) as [f|] eqn:M.
    - apply matcher_closure in M. destruct (c_op c); try (rewrite !M; reflexivity);
        apply M; assumption.
    - unfold cond_untyped. rewrite Hc. reflexivity.
  Qed.

  (* The arms of setCompareOperators.  In all three proofs [eqb], [ltb] and [leb] are expressed
     through [compare]; the arms for > and >= are [ltb] and [leb] with the arguments swapped, which
     [compare_antisym] undoes. *)
  Lemma arm_string_doc o cv v : is_cmp_op o = true ->
    exists f, arm_string fmtv o cv = Some f /\
      f (Some v) = cmp_holds o (String.compare (sval_str fmtv v) cv).
  Proof.
    intros Ho. destruct o; try discriminate Ho; eexists; (split; [reflexivity|]);
      cbn [present vnil andb]; unfold String.ltb, String.leb; rewrite ?string_eqb_compare;
      try rewrite (String.compare_antisym (sval_str fmtv v) cv);
      destruct (String.compare _ _); reflexivity.
  Qed.

  Lemma arm_int_doc o cv v : is_cmp_op o = true ->
    exists f, arm_int o cv = Some f /\
      f (Some v) = match sval_int v with Some n => cmp_holds o (Z.compare n cv) | None => false end.
  Proof.
    intros Ho. destruct o; try discriminate Ho; eexists; (split; [reflexivity|]);
      unfold with_int; cbn [present vnil]; destruct (sval_int v) as [n|]; try reflexivity;
      cbn [andb]; unfold Z.ltb, Z.leb; rewrite ?Z.eqb_compare;
      try rewrite (Z.compare_antisym cv n);
      destruct (Z.compare _ _); reflexivity.
  Qed.

  Lemma arm_float_doc o cv v : is_cmp_op o = true ->
    exists f, arm_float parsef o cv = Some f /\
      f (Some v) = match sval_float parsef v with Some n => cmp_holds o (dy_cmp n cv) | None => false end.
  Proof.
    intros Ho. destruct o; try discriminate Ho; eexists; (split; [reflexivity|]);
      unfold with_float; cbn [present vnil]; destruct (sval_float parsef v) as [n|]; try reflexivity;
      cbn [andb]; unfold dy_ltb, dy_leb, dy_eqb;
      try rewrite (dy_cmp_antisym cv n);
      destruct (dy_cmp _ _); reflexivity.
  Qed.

  Lemma coerce_cv_int v : coerce_cv fmtv parsef DInt v = option_map TInt (cval_int v).
  Proof. destruct v; reflexivity. Qed.
  Lemma coerce_cv_float v : coerce_cv fmtv parsef DFloat v = option_map TFloat (cval_float parsef v).
  Proof. destruct v; reflexivity. Qed.
  Lemma coerce_cv_bool v : coerce_cv fmtv parsef DBool v = Some (TBool (cval_bool fmtv v)).
  Proof. reflexivity. Qed.

  Lemma compare_doc c v :
    cond_wf c = true -> is_cmp_op (c_op c) = true ->
    match set_compare fmtv parsef c with
    | Some f => f (Some v)
    | None => cond_untyped c (Some v)
    end = doc_compare fmtv parsef (c_op c) (c_dt c) (c_val c) v.
  Proof.
    intros Hwf Ho. unfold RulesSpec.cond_wf in Hwf. apply andb_true_iff in Hwf as [_ Hwf].
    (* Hwf: the test of operator against datatype and value; it refutes the cases below in which
       the value does not convert or the datatype has no such comparison *)
    unfold set_compare, doc_compare. destruct (c_dt c).
    - (* no Datatype: Matches stays nil, conditionMatchesValue decides *)
      unfold cond_untyped. destruct (c_op c); try discriminate Ho;
        destruct (compare_untyped v (c_val c)) as [[]|]; reflexivity.
    - destruct (arm_string_doc (c_op c) (cval_str fmtv (c_val c)) v Ho) as (f & -> & ->). reflexivity.
    - rewrite coerce_cv_int. destruct (cval_int (c_val c)) as [n|].
      + destruct (arm_int_doc (c_op c) n v Ho) as (f & -> & ->).
        cbn [coerce_s]. destruct (sval_int v); reflexivity.
      + destruct (c_op c); discriminate.
    - rewrite coerce_cv_float. destruct (cval_float parsef (c_val c)) as [n|].
      + destruct (arm_float_doc (c_op c) n v Ho) as (f & -> & ->).
        cbn [coerce_s]. destruct (sval_float parsef v); reflexivity.
      + destruct (c_op c); discriminate.
    - (* only = and != are documented *)
      rewrite coerce_cv_bool.
      destruct (c_op c); try discriminate;
        cbn [arm_bool present vnil andb coerce_s tv_cmp]; rewrite bool_eqb_compare;
        destruct (Bool.compare _ _); reflexivity.
    - destruct (c_op c); discriminate.
  Qed.

  Lemma existsb_coerced {A} (T : A -> tv) (eqb : A -> A -> bool) (g : cscalar -> option A) a items :
    (forall x y, tv_eqb (T x) (T y) = eqb x y) ->
    existsb (tv_eqb (T a)) (filter_some (map (fun x => option_map T (g x)) items)) =
    existsb (eqb a) (filter_some (map g items)).
  Proof.
    intros H. induction items as [|i r IH]; cbn [map filter_some]; [reflexivity|].
    destruct (g i) as [y|]; cbn [option_map filter_some existsb]; [rewrite H, IH; reflexivity|exact IH].
  Qed.

  (* setInBasedOperators *)
  Lemma set_in_doc c v :
    is_some (in_items (c_val c)) = true ->
    match c_dt c with DBool | DBad => false | _ => true end = true ->
    exists m, m (Some v) = doc_in fmtv parsef (c_dt c) (c_val c) v /\
      set_in fmtv parsef c = match c_op c with
                             | OpIn => Some m
                             | OpNotIn => Some (fun ov => present ov && negb (m ov))
                             | _ => None
                             end.
  Proof.
    intros Hit Hdt. unfold set_in, doc_in. destruct (in_items (c_val c)) as [items|]; [|discriminate Hit].
    destruct (c_dt c); try discriminate Hdt; cbn [in_matches in_dt]; eexists; (split; [|reflexivity]);
      cbn [present vnil andb coerce_s].
    1-2: (* no Datatype means string *)
      symmetry; unfold str_mem; rewrite <- (filter_some_map_some (cscalar_str fmtv));
      apply (existsb_coerced TStr String.eqb (fun x => Some (cscalar_str fmtv x))), tv_eqb_str.
    - destruct (sval_int v) as [i|]; [|reflexivity]. symmetry. apply (existsb_coerced TInt), tv_eqb_int.
    - destruct (sval_float parsef v) as [d|]; [|reflexivity]. symmetry.
      apply (existsb_coerced TFloat), tv_eqb_float.
  Qed.

  Lemma cond_wf_inv c : cond_wf c = true ->
    init_conflict c = false /\
    match c_op c with
    | OpUnknown => False
    | OpMatches => is_some (rx (cval_str fmtv (c_val c))) = true
    | OpIn | OpNotIn => is_some (in_items (c_val c)) = true /\
                        match c_dt c with DBool | DBad => false | _ => true end = true
    | _ => True
    end.
  Proof.
    unfold RulesSpec.cond_wf. intros H. apply andb_true_iff in H as [Hc Hop].
    split; [apply negb_true_iff, Hc|].
    destruct (c_op c); trivial; try discriminate Hop; apply andb_true_iff, Hop.
  Qed.

  Lemma cmatch_doc c ov : cond_wf c = true -> cmatch c ov = doc_match c ov.
  Proof.
    intros Hwf. pose proof (fun v => compare_doc c v Hwf) as Hcmp.
    apply cond_wf_inv in Hwf as [Hnc Hop].
    destruct ov as [v|]; unfold RulesSpec.doc_match.
    - unfold Rules.cmatch, matcher, RulesSpec.doc_present. rewrite Hnc.
      destruct (c_op c) eqn:Eo.
      1-6: exact (Hcmp v eq_refl).
      1-3: unfold set_stringop; rewrite Eo; reflexivity.
      + (* OpExists *) reflexivity.
      + (* OpNotExists *) reflexivity.
      + (* OpHasRoot: Matches nil, untyped switch has no arm *)
        unfold cond_untyped. rewrite Eo. reflexivity.
      + unfold set_regex. destruct (rx (cval_str fmtv (c_val c))) as [f|]; [reflexivity|discriminate Hop].
      + destruct Hop as [Hit Hdt]. destruct (set_in_doc c v Hit Hdt) as (m & <- & ->).
        rewrite Eo. reflexivity.
      + destruct Hop as [Hit Hdt]. destruct (set_in_doc c v Hit Hdt) as (m & <- & ->).
        rewrite Eo. reflexivity.
      + destruct Hop.
    - (* only not-exists matches, and it does *)
      destruct (cmatch c None) eqn:E; [rewrite (cmatch_absent c E); reflexivity|].
      destruct (c_op c) eqn:Eo; try reflexivity.
      unfold Rules.cmatch, matcher in E. rewrite Hnc, Eo in E. discriminate E.
  Qed.

  (* checkedOnlyRoot comes back true only if it was true at the start and every field looked at was
     a `root.` one, and then no span was read. *)
  Lemma extract_loop_spec t sp fs : forall cor,
    exists cor', extract_loop t sp fs cor = (first_present t sp fs, cor') /\
      (cor' = true -> cor = true /\ forall sp', first_present t sp' fs = first_present t sp fs).
  Proof.
    induction fs as [|f r IH]; intros cor; cbn [extract_loop first_present].
    - exists false. split; [reflexivity|discriminate].
    - unfold field_on. destruct (strip_root f) as [f'|].
      + destruct (t_root t) as [rt|]; [|apply IH]. destruct (sget f' rt); [|apply IH].
        exists cor. split; [reflexivity|]. intros ->. split; reflexivity.
      + destruct (sget f sp); [exists false; split; [reflexivity|discriminate]|].
        destruct (IH false) as (cor' & -> & H). exists cor'. split; [reflexivity|].
        intros Hc. destruct (H Hc) as [Hf _]. discriminate Hf.
  Qed.

  Lemma extract_spec t sp c :
    exists cor, extract t sp c = (cond_value t sp c, cor) /\
                (cor = true -> forall sp', cond_value t sp' c = cond_value t sp c).
  Proof.
    unfold extract, cond_value. destruct (is_virtual c).
    - exists true. split; reflexivity.
    - destruct (extract_loop_spec t sp (eff_fields c) true) as (cor & -> & H).
      exists cor. split; [reflexivity|]. intros Hc. apply (H Hc).
  Qed.

  Lemma cond_span_loop_exists t c spans :
    cond_span_loop fmtv parsef rx t c spans = existsb (fun sp => cmatch c (cond_value t sp c)) spans.
  Proof.
    induction spans as [|sp r IH]; cbn [cond_span_loop existsb]; [reflexivity|].
    destruct (extract_spec t sp c) as (cor & -> & Hcor).
    destruct (cmatch c (cond_value t sp c)) eqn:M; [reflexivity|]. destruct cor; [|exact IH].
    (* break: the other spans would yield the same value *)
    symmetry. apply existsb_none. intros sp'. rewrite (Hcor eq_refl sp'). exact M.
  Qed.

  (* `matched` counts the conditions that hold, so it reaches len(Conditions) exactly when all do *)
  Lemma trace_conds_count t conds :
    match trace_conds fmtv parsef rx t conds with
    | Some k => (k <= length conds)%nat /\
                Nat.eqb k (length conds) = forallb (cond_on_trace fmtv cmatch t) conds
    | None => forallb (cond_on_trace fmtv cmatch t) conds = false
    end.
  Proof.
    induction conds as [|c r IH]; cbn [trace_conds forallb length].
    - split; [lia|reflexivity].
    - unfold cond_on_trace at 1 3. rewrite <- cond_span_loop_exists.
      destruct (is_hasroot c).
      + destruct (Bool.eqb (has_root t) (cval_bool fmtv (c_val c))); [|reflexivity].
        destruct (trace_conds fmtv parsef rx t r) as [k|]; cbn [option_map andb]; [|exact IH].
        destruct IH as [Hle Heq]. split; [lia|exact Heq].
      + destruct (trace_conds fmtv parsef rx t r) as [k|]; cbn [option_map].
        * destruct IH as [Hle Heq]. destruct (cond_span_loop fmtv parsef rx t c (t_spans t)); cbn [andb].
          -- split; [lia|exact Heq].
          -- split; [lia|]. apply Nat.eqb_neq. lia.
        * rewrite IH. apply andb_false_r.
  Qed.

  Lemma rule_matches_trace_forall t conds :
    rule_matches_trace fmtv parsef rx t conds = forallb (cond_on_trace fmtv cmatch t) conds.
  Proof.
    unfold rule_matches_trace. destruct conds as [|c r]; [reflexivity|].
    pose proof (trace_conds_count t (c :: r)) as H.
    destruct (trace_conds fmtv parsef rx t (c :: r)) as [k|]; [apply H|symmetry; exact H].
  Qed.

  Definition all_on_span (t : trace) (conds : list cond) (sp : span) : bool :=
    forallb (fun c => cmatch c (cond_value t sp c)) conds.

  Lemma span_conds_spec t sp conds :
    match span_conds fmtv parsef rx t sp conds with
    | CAll => all_on_span t conds sp = true
    | CFail => all_on_span t conds sp = false
    | CAbort => forall sp', all_on_span t conds sp' = false
    end.
  Proof.
    unfold all_on_span. induction conds as [|c r IH]; cbn [span_conds forallb]; [reflexivity|].
    destruct (extract_spec t sp c) as (cor & -> & Hcor).
    destruct (cmatch c (cond_value t sp c)) eqn:M.
    - destruct (span_conds fmtv parsef rx t sp r); [exact IH|exact IH|].
      intros sp'. rewrite IH. apply andb_false_r.
    - destruct cor; [|reflexivity]. intros sp'. rewrite (Hcor eq_refl sp'), M. reflexivity.
  Qed.

  Lemma span_loop_exists t conds spans :
    span_loop fmtv parsef rx t conds spans = existsb (all_on_span t conds) spans.
  Proof.
    induction spans as [|sp r IH]; cbn [span_loop existsb]; [reflexivity|].
    pose proof (span_conds_spec t sp conds) as H.
    destruct (span_conds fmtv parsef rx t sp conds); rewrite H; [reflexivity|exact IH|].
    symmetry. apply existsb_none. exact H.
  Qed.

  Lemma rule_matches_span_exists t conds :
    rule_matches_span fmtv parsef rx t conds =
    is_nil conds || existsb (all_on_span t conds) (t_spans t).
  Proof. destruct conds; [reflexivity|apply span_loop_exists]. Qed.

  Variable ds : nat -> option outcome.
  Variable draw : nat -> Z.

  Notation spec_rule_matches := (spec_rule_matches fmtv).
  Notation rule_matched := (rule_matched fmtv parsef rx).
  Notation run_rules := (run_rules fmtv parsef rx ds draw).
  Notation rule_wf := (rule_wf fmtv parsef rx ds).
  Notation rules_wf := (rules_wf fmtv parsef rx ds).

  Lemma rule_matched_eq t r :
    rule_matched t r =
    match scope_of (r_scope r) with
    | ScInvalid => (true, reason_invalid)
    | _ => (spec_rule_matches cmatch t r, spec_prefix r)
    end.
  Proof.
    unfold Rules.rule_matched, RulesSpec.spec_rule_matches, spec_prefix.
    destruct (scope_of (r_scope r)); [rewrite rule_matches_span_exists|rewrite rule_matches_trace_forall|];
      reflexivity.
  Qed.

  Lemma rule_matched_structural t r :
    scope_of (r_scope r) <> ScInvalid ->
    rule_matched t r = (spec_rule_matches cmatch t r, spec_prefix r).
  Proof. intros Hsc. rewrite rule_matched_eq. destruct (scope_of (r_scope r)); [reflexivity|reflexivity|contradiction]. Qed.

  Lemma run_rules_ext t1 t2 :
    (forall r, spec_rule_matches cmatch t1 r = spec_rule_matches cmatch t2 r) ->
    forall rules i, run_rules t1 i rules = run_rules t2 i rules.
  Proof.
    intros H. induction rules as [|r rest IH]; intros i; cbn [Rules.run_rules]; [reflexivity|].
    rewrite !rule_matched_eq, H, IH. reflexivity.
  Qed.

  Lemma spec_rule_matches_rel (R : span -> span -> Prop) cm1 cm2 t1 t2 r :
    has_root t1 = has_root t2 ->
    (forall f g, (forall s1 s2, R s1 s2 -> f s1 = g s2) ->
                 existsb f (t_spans t1) = existsb g (t_spans t2)) ->
    (forall s1 s2 c, R s1 s2 -> In c (r_conds r) ->
                     cm1 c (cond_value t1 s1 c) = cm2 c (cond_value t2 s2 c)) ->
    spec_rule_matches cm1 t1 r = spec_rule_matches cm2 t2 r.
  Proof.
    intros Hr He Hv. unfold RulesSpec.spec_rule_matches. destruct (scope_of (r_scope r)); [| |reflexivity].
    - f_equal. apply He. intros s1 s2 Hs. apply forallb_ext_in. intros c Hc. apply Hv; assumption.
    - apply forallb_ext_in. intros c Hc. unfold cond_on_trace. rewrite Hr.
      destruct (is_hasroot c); [reflexivity|]. apply He. intros s1 s2 Hs. apply Hv; assumption.
  Qed.

  Lemma rule_wf_inv i r : rule_wf i r = true ->
    scope_of (r_scope r) <> ScInvalid /\
    (forall c, In c (r_conds r) -> cond_wf c = true) /\
    (if r_sampler r then is_some (ds i) = true else r_drop r = true \/ 1 <= r_rate r) /\
    0 <= r_rate r < 2 ^ 63.
  Proof.
    unfold RulesSpec.rule_wf. rewrite !andb_true_iff, forallb_forall, Z.leb_le, Z.ltb_lt.
    intros [[[[Hsc Hcs] Ha] H0] H63]. repeat split; try assumption.
    - intros E. rewrite E in Hsc. discriminate Hsc.
    - destruct (r_sampler r); [exact Ha|]. apply orb_true_iff in Ha. rewrite Z.leb_le in Ha. exact Ha.
  Qed.

  Lemma rule_matched_doc t r i :
    rule_wf i r = true ->
    rule_matched t r = (spec_rule_matches doc_match t r, spec_prefix r).
  Proof.
    intros Hwf. apply rule_wf_inv in Hwf as (Hsc & Hcs & _).
    rewrite rule_matched_structural by exact Hsc.
    f_equal. apply (spec_rule_matches_rel eq); [reflexivity| |].
    - intros f g H. apply existsb_ext_eq. intros sp. apply H. reflexivity.
    - intros sp _ c <- Hc. apply cmatch_doc, Hcs, Hc.
  Qed.

  Lemma apply_rule_doc i r :
    rule_wf i r = true ->
    apply_rule ds draw i r (spec_prefix r) = spec_apply ds draw i r.
  Proof.
    intros Hwf. apply rule_wf_inv in Hwf as (_ & _ & Ha & Hrate).
    unfold apply_rule, spec_apply. destruct (r_sampler r).
    - destruct (ds i); [reflexivity|discriminate Ha].
    - (* uint(SampleRate) is SampleRate, and SampleRate > 0 unless Drop *)
      rewrite Z.mod_small by lia.
      destruct (r_drop r); [reflexivity|]. destruct Ha as [Ha|Ha]; [discriminate Ha|].
      replace (0 <? r_rate r) with true by (symmetry; apply Z.ltb_lt; lia). reflexivity.
  Qed.

  (* On every configuration the documentation gives a meaning to, and every trace, the Go control
     flow returns the documented outcome. *)
  Lemma run_rules_refines t rules : forall i,
    rules_wf i rules = true ->
    run_rules t i rules =
    match spec_first fmtv doc_match t i rules with
    | Some (j, r) => spec_apply ds draw j r
    | None => default_outcome
    end.
  Proof.
    induction rules as [|r rest IH]; intros i Hwf; cbn [Rules.run_rules spec_first]; [reflexivity|].
    cbn [RulesSpec.rules_wf] in Hwf. apply andb_true_iff in Hwf as [Hr Hrest].
    rewrite (rule_matched_doc t r i Hr).
    destruct (spec_rule_matches doc_match t r); [apply apply_rule_doc, Hr|apply IH, Hrest].
  Qed.

  Theorem rules_refines_spec t rules :
    rules_wf O rules = true ->
    run_rules t O rules = spec_outcome fmtv ds draw doc_match t rules.
  Proof. apply run_rules_refines. Qed.

  Section SpecShape.
    Variable cm : cond -> option sval -> bool.

    Lemma cond_on_trace_iff t c :
      cond_on_trace fmtv cm t c = true <->
      if is_hasroot c then has_root t = cval_bool fmtv (c_val c)
      else exists sp, In sp (t_spans t) /\ cm c (cond_value t sp c) = true.
    Proof. unfold cond_on_trace. destruct (is_hasroot c); [apply eqb_true_iff|apply existsb_exists]. Qed.

    Lemma spec_trace_scope_iff t r :
      scope_of (r_scope r) = ScTrace ->
      (spec_rule_matches cm t r = true <->
       forall c, In c (r_conds r) ->
         if is_hasroot c then has_root t = cval_bool fmtv (c_val c)
         else exists sp, In sp (t_spans t) /\ cm c (cond_value t sp c) = true).
    Proof.
      intros Hs. unfold RulesSpec.spec_rule_matches. rewrite Hs, forallb_forall.
      split; intros H c Hc; apply cond_on_trace_iff, H, Hc.
    Qed.

    Lemma spec_span_scope_iff t r :
      scope_of (r_scope r) = ScSpan ->
      (spec_rule_matches cm t r = true <->
       r_conds r = [] \/
       exists sp, In sp (t_spans t) /\
                  forall c, In c (r_conds r) -> cm c (cond_value t sp c) = true).
    Proof.
      intros Hs. unfold RulesSpec.spec_rule_matches. rewrite Hs, orb_true_iff, existsb_exists.
      setoid_rewrite forallb_forall. rewrite is_nil_true. reflexivity.
    Qed.

    Lemma spec_unmatched_cond t r c :
      In c (r_conds r) -> is_hasroot c = false ->
      (forall sp, In sp (t_spans t) -> cm c (cond_value t sp c) = false) ->
      spec_rule_matches cm t r = false.
    Proof.
      intros Hc Hh Hno. apply not_true_is_false. intros H.
      destruct (scope_of (r_scope r)) eqn:Es.
      - apply (spec_span_scope_iff t r Es) in H as [Hnil|(sp & Hsp & Hall)].
        + rewrite Hnil in Hc. destruct Hc.
        + specialize (Hall c Hc). rewrite Hno in Hall by exact Hsp. discriminate.
      - pose proof (proj1 (spec_trace_scope_iff t r Es) H c Hc) as Hm. rewrite Hh in Hm.
        destruct Hm as (sp & Hsp & Hm). rewrite Hno in Hm by exact Hsp. discriminate.
      - unfold RulesSpec.spec_rule_matches in H. rewrite Es in H. discriminate.
    Qed.

    Lemma spec_first_iff t rules : forall i0 i r,
      spec_first fmtv cm t i0 rules = Some (i, r) <->
      exists k, i = (i0 + k)%nat /\ nth_error rules k = Some r /\
                spec_rule_matches cm t r = true /\
                forall j r', (j < k)%nat -> nth_error rules j = Some r' ->
                             spec_rule_matches cm t r' = false.
    Proof.
      induction rules as [|r0 rest IH]; intros i0 i r; cbn [spec_first].
      - split; [discriminate|]. intros (k & _ & Hn & _). destruct k; discriminate Hn.
      - destruct (spec_rule_matches cm t r0) eqn:M.
        + split.
          * intros [= <- <-]. exists O. repeat split; [lia|exact M|]. intros j r' Hj. lia.
          * intros (k & -> & Hn & _ & Hlt). destruct k as [|k].
            -- injection Hn as <-. rewrite Nat.add_0_r. reflexivity.
            -- rewrite (Hlt O r0) in M by (lia || reflexivity). discriminate.
        + rewrite IH. split; intros (k & -> & Hn & Hm & Hlt).
          * exists (S k). repeat split; [lia|exact Hn|exact Hm|].
            intros [|j] r' Hj Hnj; [injection Hnj as <-; exact M|]. apply (Hlt j r'); [lia|exact Hnj].
          * destruct k as [|k]; [injection Hn as <-; congruence|].
            exists k. repeat split; [lia|exact Hn|exact Hm|].
            intros j r' Hj. apply (Hlt (S j) r'). lia.
    Qed.

    Lemma spec_first_none t rules : forall i0,
      spec_first fmtv cm t i0 rules = None <->
      forall r, In r rules -> spec_rule_matches cm t r = false.
    Proof.
      induction rules as [|r0 rest IH]; intros i0; cbn [spec_first].
      - split; [intros _ r []|reflexivity].
      - destruct (spec_rule_matches cm t r0) eqn:M.
        + split; [discriminate|]. intros H. rewrite H in M by (left; reflexivity). discriminate.
        + rewrite IH. split.
          * intros H r [<-|Hr]; [exact M|apply H, Hr].
          * intros H r Hr. apply H. right. exact Hr.
    Qed.
  End SpecShape.
End RulesProofs.

Definition strs_eqb := list_eqb String.eqb.

(* The text of every Matches closure / untyped arm that the model transcribes, to be compared with
   the tables of Gen/GenC08.v.  A source edit of any arm makes [gen_tables_ok] false, and Props/C08
   then fails to compile. *)
Definition expected_compare_arms : list string :=
  let hd := "r.Matches = func(spanValue any, exists bool) bool { " in
  let s o sym := "case " ++ o ++ ": " ++ hd ++ "return exists && convertToString(spanValue) " ++ sym ++ " conditionValue } return nil" in
  let n f o sym := "case " ++ o ++ ": " ++ hd ++ "if n, ok := " ++ f ++ "(spanValue); exists && ok { return n " ++ sym ++ " conditionValue } return false } return nil" in
  let b o sym := "case " ++ o ++ ": " ++ hd ++ "if n := TryConvertToBool(spanValue); exists { return n " ++ sym ++ " conditionValue } return false } return nil" in
  let ops := [("NEQ", "!="); ("EQ", "=="); ("GT", ">"); ("GTE", ">="); ("LT", "<"); ("LTE", "<=")] in
  (map (fun p => s (fst p) (snd p)) ops ++
   map (fun p => n "tryConvertToInt" (fst p) (snd p)) ops ++
   map (fun p => n "tryConvertToFloat" (fst p) (snd p)) ops ++
   [b "NEQ" "!="; b "EQ" "=="])%list.

Definition expected_stringop_arms : list string :=
  let hd := ": r.Matches = func(spanValue any, exists bool) bool { return exists && " in
  ["case StartsWith" ++ hd ++ "strings.HasPrefix(convertToString(spanValue), conditionValue) }";
   "case Contains" ++ hd ++ "strings.Contains(convertToString(spanValue), conditionValue) }";
   "case DoesNotContain" ++ hd ++ "!strings.Contains(convertToString(spanValue), conditionValue) }"].

Definition expected_in_arms : list string :=
  ["matches = func(spanValue any, exists bool) bool { s := convertToString(spanValue) return exists && values.Contains(s) } case";
   "matches = func(spanValue any, exists bool) bool { i, ok := tryConvertToInt(spanValue) return ok && values.Contains(i) } case";
   "matches = func(spanValue any, exists bool) bool { f, ok := tryConvertToFloat(spanValue) return ok && values.Contains(f) } case";
   "case NotIn: r.Matches = func(spanValue any, exists bool) bool { return exists && !matches(spanValue, exists) }"].

Definition expected_regex_arm : list string :=
  ["r.Matches = func(spanValue any, exists bool) bool { s := convertToString(spanValue) return exists && regex.MatchString(s) }"].

Definition expected_untyped_arms : list string :=
  let c o e := "case config." ++ o ++ ": if comparison, ok := compare(value, condition.Value); ok { match = " ++ e ++ " } " in
  ["case config.Exists: match = exists";
   c "NEQ" "comparison != equal"; c "EQ" "comparison == equal"; c "GT" "comparison == more";
   c "GTE" "comparison == more || comparison == equal"; c "LT" "comparison == less";
   c "LTE" "comparison == less || comparison == equal";
   "case config.NotExists: match = !exists"].

Definition expected_set_matches_cases : list (list string) :=
  [["Exists"]; ["NotExists"]; ["NEQ"; "EQ"; "GT"; "LT"; "LTE"; "GTE"];
   ["StartsWith"; "Contains"; "DoesNotContain"]; ["In"; "NotIn"]; ["MatchesRegexp"];
   ["HasRootSpan"]; ["default"]].

Definition expected_datatypes : list string :=
  ["case ""string"":"; "case ""int"":"; "case ""float"":"; "case ""bool"":"; "case """":"; "default:"].

Definition gen_tables_ok : bool :=
  strs_eqb compare_arms expected_compare_arms &&
  strs_eqb stringop_arms expected_stringop_arms &&
  strs_eqb in_arms expected_in_arms &&
  strs_eqb regex_arm expected_regex_arm &&
  strs_eqb untyped_arms expected_untyped_arms &&
  list_eqb strs_eqb set_matches_cases expected_set_matches_cases &&
  strs_eqb compare_datatypes expected_datatypes &&
  String.eqb rate_keep_text
    "rate = uint(rule.SampleRate) keep = !rule.Drop && rule.SampleRate > 0 && rand.Intn(rule.SampleRate) == 0 reason += rule.Name" &&
  (* the 15 operator names are pairwise distinct, so op_of_string is a faithful parser *)
  let ops := [op_EQ; op_NEQ; op_GT; op_LT; op_GTE; op_LTE; op_StartsWith; op_Contains;
              op_DoesNotContain; op_Exists; op_NotExists; op_HasRootSpan; op_MatchesRegexp;
              op_In; op_NotIn] in
  list_eqb (fun (a : op) b => match a, b with
     | OpEq, OpEq | OpNe, OpNe | OpGt, OpGt | OpLt, OpLt | OpGe, OpGe | OpLe, OpLe
     | OpStartsWith, OpStartsWith | OpContains, OpContains | OpNotContains, OpNotContains
     | OpExists, OpExists | OpNotExists, OpNotExists | OpHasRoot, OpHasRoot
     | OpMatches, OpMatches | OpIn, OpIn | OpNotIn, OpNotIn => true | _, _ => false end)
    (map op_of_string ops)
    [OpEq; OpNe; OpGt; OpLt; OpGe; OpLe; OpStartsWith; OpContains; OpNotContains; OpExists;
     OpNotExists; OpHasRoot; OpMatches; OpIn; OpNotIn] &&
  String.eqb num_descendants (computed_prefix ++ "NUM_DESCENDANTS") &&
  String.eqb compare_float_int_text
    "switch { case f != f: return equal case f >= 1<<63: return more case f < -(1 << 63): return less } whole := math.Trunc(f) switch n := int64(whole); { case n < i: return less case n > i: return more } switch { case f < whole: return less case f > whole: return more } return equal" &&
  strs_eqb compare_float_arms
    ["case float64: switch bt := b.(type) { case int: return compareFloatToInt(at, int64(bt)), true case int64: return compareFloatToInt(at, bt), true"] &&
  String.eqb convert_to_string_text
    "if f, ok := v.(float64); ok && f == math.Trunc(f) && math.Abs(f) < 1<<63 { return strconv.FormatInt(int64(f), 10) } return fmt.Sprintf(""%v"", v)".
