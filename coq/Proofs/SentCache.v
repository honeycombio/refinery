(* The decision cache (Model/SentCache.v).  Kept side: every operation on the kept LRU is a move to the front
   ([aset]), a truncation ([firstn]) or an update in place ([lru_update]), and a key keeps its decision while the
   ids in front of it ([before]) are fewer than the capacity ([retained]).  Dropped side: a drained id sits in the
   current filter and, when there is one, in the future filter; only a rotation takes it out of the current one. *)
From Coq Require Import ZifyN ZifyNat ZifyBool.
From Refinery Require Import Lib.Base Gen.GenC31 Model.SentCache.

(* only the first kept lookup matters: where it misses, a later one misses too.
   The facts down to [recent_ttl_nonneg] are about the values the translator read from the Go source (Gen.GenC31). *)
Fixpoint order_ok (seen_dropped : bool) (l : list src) : bool :=
  match l with
  | [] => false
  | SRecent :: r => order_ok seen_dropped r
  | SDropped :: r => order_ok true r
  | SKept t :: _ => seen_dropped && t
  end.

Definition is_recent (s : src) : bool := match s with SRecent => true | _ => false end.

Lemma trace_order_ok : order_ok false trace_order = true.
Proof. vm_compute. reflexivity. Qed.
Lemma span_order_ok : order_ok false span_order = true.
Proof. vm_compute. reflexivity. Qed.
(* CheckSpan consults the recent-drop set before anything else *)
Lemma span_order_recent_first : exists r, span_order = SRecent :: r.
Proof. vm_compute. eexists. reflexivity. Qed.
(* CheckTrace never touches the recent-drop set *)
Lemma trace_order_no_recent : existsb is_recent trace_order = false.
Proof. vm_compute. reflexivity. Qed.

(* 96 %: cuckoofilter.NewFilter doubles the buckets when capacity / slots would exceed 0.96, so a filter above
   96 % holds more than its capacity *)
Lemma thresholds_facts :
  (half_num * full_den <= full_num * half_den)%N /\ (96 * full_den <= 100 * full_num)%N /\
  (0 < full_den)%N /\ (0 < half_den)%N.
Proof. vm_compute. repeat split; discriminate. Qed.

(* Get{Kept,Dropped}SizePerWorker are the ceiling division that [per_worker] of the model computes *)
Lemma sizing_formulas_as_modelled :
  kept_per_worker_is_ceil = true /\ dropped_per_worker_is_ceil = true.
Proof. vm_compute. repeat split. Qed.

(* the add queue takes at least one id: the first hypothesis of [dropped_until_rotation] can be met *)
Lemma add_queue_depth_pos : (0 < add_queue_depth)%N.
Proof. vm_compute. reflexivity. Qed.
Lemma recent_ttl_nonneg : 0 <= recent_drop_ttl.
Proof. vm_compute. discriminate. Qed.

Lemma recent_add_contains x c : recent_contains x (recent_add x c) = true.
Proof.
  unfold recent_contains, recent_add. cbn [upd_recent recent now]. rewrite alookup_aset_eq.
  pose proof recent_ttl_nonneg. destruct (Z.ltb_spec (now c + recent_drop_ttl) (now c)); [lia|reflexivity].
Qed.

Lemma length_aremove_le {V} k (m : amap V) :
  (length (aremove k m) + (if alookup k m then 1 else 0) <= length m)%nat.
Proof.
  induction m as [|[k' v] r IH]; cbn [alookup aremove length]; [lia|].
  destruct (N.eqb k k'); [destruct (alookup k r)|cbn [length]]; lia.
Qed.

Definition card (T : list N) : N := N.of_nat (length (nodup N.eq_dec T)).

Lemma card_bound l T : NoDup l -> incl l T -> (N.of_nat (length l) <= card T)%N.
Proof.
  intros Hnd Hincl. unfold card.
  assert (H : (length l <= length (nodup N.eq_dec T))%nat).
  { apply NoDup_incl_length; [exact Hnd|]. apply nodup_incl. exact Hincl. }
  lia.
Qed.

Lemma card_mono A B : incl A B -> (card A <= card B)%N.
Proof.
  intros H. apply card_bound; [apply NoDup_nodup|].
  intros a Ha. apply nodup_In in Ha. apply H. exact Ha.
Qed.

Fixpoint before (x : N) (l : lru) : list N :=
  match l with
  | [] => []
  | (k, _) :: r => if N.eqb x k then [] else k :: before x r
  end.

Lemma before_incl_keys x l : incl (before x l) (akeys l).
Proof.
  induction l as [|[k v] r IH]; cbn [before akeys map fst]; [intros a []|].
  destruct (N.eqb x k); [intros a []|].
  intros a [<-|Ha]; [left; reflexivity|right; apply IH; exact Ha].
Qed.

Lemma NoDup_before x l : NoDup (akeys l) -> NoDup (before x l).
Proof.
  induction l as [|[k v] r IH]; cbn [before akeys map fst]; intros H; [constructor|].
  inversion H as [|? ? Hn Hr]; subst.
  destruct (N.eqb x k); [constructor|].
  constructor; [|apply IH; exact Hr].
  intros Hin. apply Hn. apply (before_incl_keys x r). exact Hin.
Qed.

Lemma before_aremove_incl x y l : x <> y -> incl (before x (aremove y l)) (before x l).
Proof.
  intros Hne. induction l as [|[k v] r IH]; cbn [before aremove]; [intros a []|].
  destruct (N.eqb_spec y k) as [<-|_].
  - destruct (N.eqb_spec x y); [contradiction|]. apply incl_tl. exact IH.
  - cbn [before]. destruct (N.eqb x k); [intros a []|].
    intros a [<-|Ha]; [left; reflexivity|right; apply IH; exact Ha].
Qed.

Lemma before_length x l r : alookup x l = Some r -> (length (before x l) < length l)%nat.
Proof.
  induction l as [|[k v] t IH]; cbn [alookup before length]; [discriminate|].
  destruct (N.eqb x k); cbn [length]; [lia|].
  intros H. apply IH in H. lia.
Qed.

Lemma firstn_keep x n l r :
  alookup x l = Some r -> (length (before x l) < n)%nat ->
  alookup x (firstn n l) = Some r /\ before x (firstn n l) = before x l.
Proof.
  revert n. induction l as [|[k v] t IH]; intros n; [discriminate|].
  destruct n as [|n]; [intros _ H; lia|].
  cbn [firstn alookup before]. destruct (N.eqb x k) eqn:Ex.
  - intros H _. split; [exact H|reflexivity].
  - intros H Hl. cbn [length] in Hl. destruct (IH n H) as [H1 H2]; [lia|].
    split; [exact H1|]. rewrite H2. reflexivity.
Qed.

(* what simplelru maintains *)
Definition lru_inv (cap : N) (l : lru) : Prop := NoDup (akeys l) /\ (N.of_nat (length l) <= cap)%N.

Lemma lru_inv_aset cap k v w l : lru_inv cap l -> alookup k l = Some w -> lru_inv cap (aset k v l).
Proof.
  intros [Hnd Hlen] L. split; [apply NoDup_akeys_aset; exact Hnd|].
  pose proof (length_aremove_le k l) as H. rewrite L in H. unfold aset. cbn [length]. lia.
Qed.

Lemma lru_inv_firstn cap n l : NoDup (akeys l) -> (N.of_nat n <= cap)%N -> lru_inv cap (firstn n l).
Proof.
  intros Hnd Hn. split; [rewrite akeys_firstn; apply NoDup_firstn; exact Hnd|].
  pose proof (firstn_le_length n l). lia.
Qed.

Lemma akeys_lru_update y v l : akeys (lru_update y v l) = akeys l.
Proof.
  induction l as [|[k w] t IH]; cbn [lru_update akeys map fst]; [reflexivity|].
  destruct (N.eqb y k); cbn [akeys map fst]; [reflexivity|].
  f_equal. exact IH.
Qed.

Lemma length_lru_update y v l : length (lru_update y v l) = length l.
Proof.
  induction l as [|[k w] t IH]; cbn [lru_update length]; [reflexivity|].
  destruct (N.eqb y k); cbn [length]; [reflexivity|]. rewrite IH. reflexivity.
Qed.

Lemma lru_inv_update cap y v l : lru_inv cap l -> lru_inv cap (lru_update y v l).
Proof. unfold lru_inv. rewrite akeys_lru_update, length_lru_update. trivial. Qed.

(* a Get that touches moves the entry to the head, where the update then finds it: together they are [aset] *)
Lemma lru_update_head y v w t : lru_update y v ((y, w) :: t) = (y, v) :: t.
Proof. cbn [lru_update]. rewrite N.eqb_refl. reflexivity. Qed.

Lemma before_lru_update x y v l : before x (lru_update y v l) = before x l.
Proof.
  induction l as [|[k w] t IH]; cbn [lru_update before]; [reflexivity|].
  destruct (N.eqb y k); cbn [before]; [reflexivity|].
  destruct (N.eqb x k); [reflexivity|]. rewrite IH. reflexivity.
Qed.

Lemma alookup_lru_update x y v l :
  alookup x (lru_update y v l) = if N.eqb x y then option_map (fun _ => v) (alookup x l) else alookup x l.
Proof.
  induction l as [|[k w] t IH]; cbn [lru_update alookup]; [destruct (N.eqb x y); reflexivity|].
  destruct (N.eqb_spec y k) as [<-|Hne]; cbn [alookup].
  - destruct (N.eqb x y); reflexivity.
  - destruct (N.eqb_spec x k) as [->|_]; [|exact IH]. destruct (N.eqb_spec k y); [congruence|reflexivity].
Qed.

Lemma In_lru_update k r y v l : In (k, r) (lru_update y v l) -> In (k, r) l \/ r = v.
Proof.
  induction l as [|[k' u] t IH]; cbn [lru_update In]; [intros []|].
  destruct (N.eqb y k'); cbn [In].
  - intros [H|H]; [right; congruence|left; right; exact H].
  - intros [H|H]; [left; left; exact H|]. destruct (IH H); [left; right; assumption|right; assumption].
Qed.

Lemma lru_add_firstn cap k v l : lru_inv cap l -> lru_add cap k v l = firstn (N.to_nat cap) (aset k v l).
Proof.
  intros [_ Hlen]. pose proof (length_aremove_le k l) as Hr. unfold lru_add, aset.
  destruct (alookup k l) eqn:L.
  - rewrite firstn_all2; [reflexivity|]. cbn [length]. lia.
  - rewrite (aremove_absent k l L).
    destruct (N.ltb_spec cap (N.of_nat (length ((k, v) :: l)))) as [Hlt|Hge].
    + rewrite removelast_firstn_len. f_equal. cbn [length] in *. lia.
    + rewrite firstn_all2; [reflexivity|lia].
Qed.

Lemma lru_inv_add cap k v l : lru_inv cap l -> lru_inv cap (lru_add cap k v l).
Proof.
  intros H. rewrite (lru_add_firstn cap k v l H).
  apply lru_inv_firstn; [apply NoDup_akeys_aset; exact (proj1 H)|lia].
Qed.

Lemma lru_add_head cap k v l : (0 < cap)%N -> lru_inv cap l -> exists t, lru_add cap k v l = (k, v) :: t.
Proof.
  intros Hpos H. rewrite (lru_add_firstn cap k v l H).
  destruct (N.to_nat cap) eqn:E; [lia|]. eexists. reflexivity.
Qed.

Lemma In_lru_add cap k v l k' r : lru_inv cap l -> In (k', r) (lru_add cap k v l) -> In (k', r) l \/ r = v.
Proof.
  intros H. rewrite (lru_add_firstn cap k v l H). intros Hin. apply In_firstn in Hin.
  apply In_aset in Hin. exact Hin.
Qed.

Definition same_decision (r r' : krec) : Prop := k_rate r' = k_rate r /\ k_reason r' = k_reason r.

Lemma same_decision_refl r : same_decision r r.
Proof. split; reflexivity. Qed.

Lemma same_decision_trans a b c : same_decision a b -> same_decision b c -> same_decision a c.
Proof. intros [] []. split; congruence. Qed.

Definition retained (x : N) (r : krec) (T : list N) (l : lru) : Prop :=
  (exists r', alookup x l = Some r' /\ same_decision r r') /\ incl (before x l) T.

Lemma retained_app x r T T' l : retained x r T l -> retained x r (T ++ T') l.
Proof. intros [Hx Hb]. split; [exact Hx|apply incl_appl; exact Hb]. Qed.

Lemma retained_head x r v t T : same_decision r v -> retained x r T ((x, v) :: t).
Proof.
  intros Hs. split; cbn [alookup before]; rewrite N.eqb_refl; [|apply incl_nil_l].
  exists v. split; [reflexivity|exact Hs].
Qed.

Lemma retained_aset x y r v T l :
  (y = x -> same_decision r v) -> retained x r T l ->
  retained x r (T ++ if N.eqb y x then [] else [y]) (aset y v l).
Proof.
  intros Hv [Hx Hb]. destruct (N.eqb_spec y x) as [->|Hne]; [apply retained_head, Hv; reflexivity|].
  assert (Hne' : x <> y) by congruence.
  split; [rewrite alookup_aset_neq by exact Hne'; exact Hx|].
  unfold aset. cbn [before]. destruct (N.eqb_spec x y); [contradiction|].
  intros a [<-|Ha]; apply in_or_app; [right; left; reflexivity|left].
  apply Hb. apply (before_aremove_incl x y l Hne'). exact Ha.
Qed.

(* the position of x is below the number of distinct ids of T *)
Lemma retained_firstn x r T n l :
  NoDup (akeys l) -> retained x r T l -> (card T < N.of_nat n)%N -> retained x r T (firstn n l).
Proof.
  intros Hnd [(r' & Hx & Hs) Hb] Hc.
  pose proof (card_bound _ _ (NoDup_before x l Hnd) Hb) as Hpos.
  destruct (firstn_keep x n l r' Hx) as [Hx' Hb']; [lia|].
  split; [exists r'; split; assumption|rewrite Hb'; exact Hb].
Qed.

Lemma retained_update x y r v T l :
  (y = x -> same_decision r v) -> retained x r T l -> retained x r T (lru_update y v l).
Proof.
  intros Hv [(r' & Hx & Hs) Hb]. split; [|rewrite before_lru_update; exact Hb].
  rewrite alookup_lru_update, Hx. destruct (N.eqb_spec x y) as [<-|_]; [exists v|exists r']; auto.
Qed.

Lemma retained_lru_add cap x y r v T l :
  lru_inv cap l -> (y = x -> same_decision r v) -> retained x r T l ->
  let T' := T ++ if N.eqb y x then [] else [y] in
  (card T' < cap)%N -> retained x r T' (lru_add cap y v l).
Proof.
  intros Hinv Hv Hr T' Hc. rewrite (lru_add_firstn cap y v l Hinv).
  apply retained_firstn; [apply NoDup_akeys_aset; exact (proj1 Hinv)|apply retained_aset; assumption|rewrite N2Nat.id; exact Hc].
Qed.

Lemma retained_hit x y r v v' (t : bool) T l :
  alookup y l = Some v -> same_decision v v' -> retained x r T l ->
  retained x r (T ++ if N.eqb y x then [] else [y]) (if t then aset y v' l else lru_update y v' l).
Proof.
  intros Hy Hs Hr.
  assert (Hrv : y = x -> same_decision r v').
  { intros ->. destruct Hr as [(r' & Hx & Hs') _]. apply (same_decision_trans r v); congruence. }
  destruct t; [apply retained_aset; assumption|].
  apply retained_app, retained_update; assumption.
Qed.

Section Cache.
Variable h : string -> N.
Variable slots_of : N -> N.
(* the model's own constants are written [SentCache.step], [SentCache.run], ... where a [cbn] has to name them *)
Notation step := (step h slots_of).
Notation run := (run h slots_of).
Notation rotations := (rotations h slots_of).
Notation chk_maintain := (chk_maintain slots_of).

(* The reason indices in the kept records and in the hash map are at most the number of interned strings: the
   table only grows, so such an index reads the same string later on ([reason_str_run]).  The 3rd clause is the
   part of [reasons_wf] that does not mention the hash. *)
Definition cache_inv (c : cache) : Prop :=
  lru_inv (kcap c) (kept c) /\
  (forall k r, In (k, r) (kept c) -> (k_reason r <= N.of_nat (length (r_data (rs c))))%N) /\
  (forall k v, alookup k (r_keys (rs c)) = Some v -> (v <= N.of_nat (length (r_data (rs c))))%N).

Lemma run_preserves (P : cache -> Prop) :
  (forall c o, P c -> P (fst (step c o))) -> forall ops c, P c -> P (run c ops).
Proof.
  intros Hstep ops. induction ops as [|o r IH]; intros c H; cbn [SentCache.run]; [exact H|].
  apply IH. apply Hstep. exact H.
Qed.

(* the record a hit stores back: CheckSpan counts the span in, CheckTrace leaves the record alone *)
Definition counted (span : option N) (v : krec) : krec :=
  match span with Some ann => krec_count ann v | None => v end.

Lemma counted_same span v : same_decision v (counted span v).
Proof. destruct span; split; reflexivity. Qed.

Lemma lookup_cases order span y c :
  let c' := fst (lookup order span y c) in
  let a := snd (lookup order span y c) in
  kcap c' = kcap c /\ rs c' = rs c /\ chk c' = chk c /\ now c' = now c /\
  (kept c' = kept c /\ (a = ANotFound \/ a = ADropped) \/
   exists (t : bool) v, alookup y (kept c) = Some v /\
               kept c' = if t then aset y (counted span v) (kept c) else lru_update y (counted span v) (kept c)).
Proof.
  induction order as [|s rest IH]; cbn [lookup]; [cbn; repeat split; auto|].
  destruct s as [| |t].
  - destruct (recent_contains y c); [cbn; repeat split; auto|exact IH].
  - destruct (chk_check y (chk c)); [|exact IH]. destruct span; cbn; repeat split; auto.
  - unfold lru_get. destruct (alookup y (kept c)) as [v|] eqn:Ly; [|exact IH].
    cbn [fst upd_kept kept kcap rs chk]. repeat split. right. exists t, v. split; [reflexivity|].
    destruct t; [apply lru_update_head|reflexivity].
Qed.

Lemma lookup_retained x r T order span y c :
  retained x r T (kept c) ->
  retained x r (T ++ if N.eqb y x then [] else [y]) (kept (fst (lookup order span y c))).
Proof.
  intros Hr. destruct (lookup_cases order span y c) as (_ & _ & _ & _ & [[-> _]|(t & v & Ly & ->)]).
  - apply retained_app. exact Hr.
  - apply (retained_hit x y r v); [exact Ly|apply counted_same|exact Hr].
Qed.

Lemma lookup_inv order span y c : cache_inv c -> cache_inv (fst (lookup order span y c)).
Proof.
  intros (Hlru & Hreason & Hkeys).
  destruct (lookup_cases order span y c) as (Hk & Hr & _ & _ & [[Hl _]|(t & v & Ly & Hl)]);
    unfold cache_inv; rewrite Hk, Hr, Hl; [auto|].
  split; [|split; [|exact Hkeys]].
  - destruct t; [apply (lru_inv_aset _ _ _ v)|apply lru_inv_update]; assumption.
  - (* every record of the new list is one of the old list, up to the counters *)
    pose proof (Hreason y v (alookup_In _ _ _ Ly)) as Hv. rewrite <- (proj2 (counted_same span v)) in Hv.
    intros k r0 Hin. destruct t; [apply In_aset in Hin|apply In_lru_update in Hin]; destruct Hin as [Hin| ->]; eauto.
Qed.

Lemma lookup_recent_wins order span x c :
  recent_contains x c = true -> snd (lookup (SRecent :: order) span x c) = ADropped.
Proof. intros H. cbn [lookup]. rewrite H. reflexivity. Qed.

Lemma lookup_dropped_wins order span x c :
  order_ok false order = true -> chk_check x (chk c) = true -> snd (lookup order span x c) = ADropped.
Proof.
  intros Hok Hin. induction order as [|s r IH]; cbn [order_ok] in Hok; [discriminate|].
  cbn [lookup]. destruct s as [| |t].
  - destruct (recent_contains x c); [reflexivity|apply IH; exact Hok].
  - rewrite Hin. reflexivity.
  - discriminate.
Qed.

Lemma lookup_dropped_origin order span x c :
  snd (lookup order span x c) = ADropped ->
  chk_check x (chk c) = true \/ existsb is_recent order = true /\ recent_contains x c = true.
Proof.
  induction order as [|s r IH]; cbn [lookup existsb]; [discriminate|].
  destruct s as [| |t]; cbn [is_recent orb].
  - destruct (recent_contains x c); [auto|]. intros H. apply IH in H as [H|[_ H]]; [auto|discriminate].
  - destruct (chk_check x (chk c)); [auto|exact IH].
  - unfold lru_get. destruct (alookup x (kept c)); [discriminate|exact IH].
Qed.

Lemma lookup_ok order seen span x c :
  order_ok seen order = true ->
  snd (lookup order span x c) = ADropped \/
  match alookup x (kept c) with
  | Some r => let v := counted span r in
              lookup order span x c = (upd_kept c (aset x v (kept c)), kept_answer c v)
  | None => snd (lookup order span x c) = ANotFound
  end.
Proof.
  revert seen. induction order as [|s rest IH]; intros seen Hok; cbn [order_ok] in Hok; [discriminate|].
  cbn [lookup]. destruct s as [| |t].
  - destruct (recent_contains x c); [left; reflexivity|apply (IH seen Hok)].
  - destruct (chk_check x (chk c)); [left; reflexivity|apply (IH true Hok)].
  - apply andb_true_iff in Hok as [_ ->]. unfold lru_get. destruct (alookup x (kept c)) as [r|] eqn:Hx.
    + right. cbn iota. rewrite lru_update_head. reflexivity.
    + destruct (lookup_cases rest span x c) as (_ & _ & _ & _ & [[_ [H|H]]|(t & v & Hv & _)]); [auto|auto|congruence].
Qed.

Lemma lookup_kept_hit order span x c r :
  order_ok false order = true -> alookup x (kept c) = Some r -> chk_check x (chk c) = false ->
  (existsb is_recent order = true -> recent_contains x c = false) ->
  lookup order span x c = (upd_kept c (aset x (counted span r) (kept c)), kept_answer c (counted span r)).
Proof.
  intros Hok Hx Hnd Hrec. destruct (lookup_ok order false span x c Hok) as [H|H]; [|rewrite Hx in H; exact H].
  apply lookup_dropped_origin in H as [H|[H1 H2]]; [|apply Hrec in H1]; congruence.
Qed.

Lemma lookup_kept_origin order span x c rate d e l s reason :
  order_ok false order = true -> snd (lookup order span x c) = AKept rate d e l s reason ->
  exists v, lookup order span x c = (upd_kept c (aset x v (kept c)), kept_answer c v).
Proof.
  intros Hok Ha. destruct (lookup_ok order false span x c Hok) as [H|H]; [congruence|].
  destruct (alookup x (kept c)); [eexists; exact H|congruence].
Qed.

(* the dropped-trace checker evolves on its own *)
Definition chk_step (k : checker) (o : op) : checker :=
  match o with
  | RecDropped id => chk_add id k
  | Drain => chk_drain k
  | Maintain => chk_maintain k
  | Resize ksz dsz wc =>
      if N.eqb (per_worker ksz wc) 0 then k
      else {| cur := cur k; fut := fut k; capa := per_worker dsz wc; queue := queue k |}
  | _ => k
  end.

Lemma step_fields c o :
  let c' := fst (step c o) in
  kcap c' = match o with
            | Resize ksz _ wc => if N.eqb (per_worker ksz wc) 0 then kcap c else per_worker ksz wc
            | _ => kcap c
            end /\
  rs c' = match o with RecKept _ _ reason _ _ _ _ => fst (reasons_set h (rs c) reason) | _ => rs c end /\
  chk c' = chk_step (chk c) o.
Proof.
  destruct o; cbn [SentCache.step chk_step]; try (repeat split; reflexivity); try (repeat split; apply lookup_cases).
  - destruct (reasons_set h (rs c) reason). repeat split.
  - destruct (N.eqb (per_worker ksz wc) 0); repeat split.
Qed.

Definition step_kcap c o := proj1 (step_fields c o).
Definition step_rs c o := proj1 (proj2 (step_fields c o)).
Definition step_chk c o := proj2 (proj2 (step_fields c o)).

(* Resize refuses a kept size of 0 with an error and changes nothing *)
Lemma resize_zero c ksz dsz wc : per_worker ksz wc = 0%N -> step c (Resize ksz dsz wc) = (c, AUnit).
Proof. intros E. cbn [SentCache.step]. rewrite E. reflexivity. Qed.

(* re-adding the entries of a list that fits, oldest first, rebuilds the list *)
Lemma resize_fold kc (l m : lru) :
  NoDup (akeys m) -> (N.of_nat (length m) <= kc)%N ->
  (forall k v, In (k, v) m -> alookup k l = Some v) ->
  fold_left (fun acc k => match alookup k l with Some v => lru_add kc k v acc | None => acc end)
            (rev (map fst m)) [] = m.
Proof.
  induction m as [|[k v] t IH]; intros Hnd Hlen Hl; [reflexivity|].
  cbn [akeys map fst] in Hnd. inversion Hnd as [|? ? Hn Hr]; subst.
  cbn [map fst rev]. rewrite fold_left_app, IH;
    [|exact Hr|cbn [length] in Hlen; lia|intros k' v' Hin; apply Hl; right; exact Hin].
  cbn [fold_left]. rewrite (Hl k v) by (left; reflexivity).
  unfold lru_add. destruct (alookup k t) eqn:L.
  - exfalso. apply Hn. apply In_akeys_alookup. congruence.
  - destruct (N.ltb_spec kc (N.of_nat (length ((k, v) :: t)))) as [Hlt|Hge]; [lia|reflexivity].
Qed.

Lemma resize_kept c ksz dsz wc :
  NoDup (akeys (kept c)) -> per_worker ksz wc <> 0%N ->
  kept (fst (step c (Resize ksz dsz wc))) = firstn (N.to_nat (per_worker ksz wc)) (kept c).
Proof.
  intros Hnd Hne. cbn [SentCache.step]. destruct (N.eqb_spec (per_worker ksz wc) 0) as [E|_]; [contradiction|].
  cbn [fst kept]. set (kc := per_worker ksz wc). set (l := kept c).
  assert (Hk : skipn (length (rev (map fst l)) - N.to_nat kc) (rev (map fst l)) =
               rev (map fst (firstn (N.to_nat kc) l))).
  { rewrite skipn_rev, rev_length, map_length, firstn_map.
    replace (length l - (length l - N.to_nat kc))%nat with (Nat.min (N.to_nat kc) (length l)) by lia.
    rewrite <- firstn_firstn, firstn_all. reflexivity. }
  rewrite Hk. apply resize_fold.
  - rewrite akeys_firstn. apply NoDup_firstn. exact Hnd.
  - rewrite firstn_length. lia.
  - intros k v Hin. apply In_alookup_NoDup; [exact Hnd|]. eapply In_firstn. exact Hin.
Qed.

Definition grows (rc rc' : reasons) : Prop := exists suf, r_data rc' = r_data rc ++ suf.

Lemma grows_refl rc : grows rc rc.
Proof. exists []. rewrite app_nil_r. reflexivity. Qed.

Lemma grows_trans a b c : grows a b -> grows b c -> grows a c.
Proof. intros [s1 H1] [s2 H2]. exists (s1 ++ s2). rewrite H2, H1, app_assoc. reflexivity. Qed.

Lemma reasons_get_nth rc key :
  (1 <= key)%N -> reasons_get rc key = nth_error (r_data rc) (N.to_nat (key - 1)).
Proof.
  intros Hk. unfold reasons_get. destruct (N.eqb_spec key 0); [lia|].
  destruct (N.ltb_spec (N.of_nat (length (r_data rc))) key); [|reflexivity].
  symmetry. apply nth_error_None. lia.
Qed.

Lemma reasons_get_stable rc rc' key :
  grows rc rc' -> (key <= N.of_nat (length (r_data rc)))%N -> reasons_get rc' key = reasons_get rc key.
Proof.
  intros [suf Hd] Hk. destruct (N.eq_dec key 0) as [->|Hne]; [reflexivity|].
  rewrite !reasons_get_nth, Hd by lia. apply nth_error_app1. lia.
Qed.

Lemma reasons_set_data rc s :
  let d := r_data (fst (reasons_set h rc s)) in d = r_data rc \/ d = r_data rc ++ [s].
Proof. unfold reasons_set. destruct (alookup (h s) (r_keys rc)); [left|right]; reflexivity. Qed.

Lemma reasons_set_grows rc s : grows rc (fst (reasons_set h rc s)).
Proof. destruct (reasons_set_data rc s) as [H|H]; [exists []; rewrite app_nil_r|exists [s]]; exact H. Qed.

Lemma reasons_set_key rc s :
  alookup (h s) (r_keys (fst (reasons_set h rc s))) = Some (snd (reasons_set h rc s)).
Proof.
  unfold reasons_set. destruct (alookup (h s) (r_keys rc)) eqn:L; cbn [fst snd r_keys]; [exact L|].
  apply alookup_aset_eq.
Qed.

Lemma reasons_set_bound rc s :
  (forall k v, alookup k (r_keys rc) = Some v -> (v <= N.of_nat (length (r_data rc)))%N) ->
  let rc' := fst (reasons_set h rc s) in
  forall k v, alookup k (r_keys rc') = Some v -> (v <= N.of_nat (length (r_data rc')))%N.
Proof.
  intros Hk. unfold reasons_set. destruct (alookup (h s) (r_keys rc)) eqn:L; cbn [fst r_data r_keys]; [exact Hk|].
  intros k v. rewrite app_length. cbn [length]. destruct (N.eq_dec k (h s)) as [->|Hne].
  - rewrite alookup_aset_eq. intros [= <-]. lia.
  - rewrite alookup_aset_neq by exact Hne. intros Hv. apply Hk in Hv. lia.
Qed.

Definition reasons_wf (rc : reasons) : Prop :=
  forall k v, alookup k (r_keys rc) = Some v ->
    (1 <= v)%N /\ exists s, nth_error (r_data rc) (N.to_nat (v - 1)) = Some s /\ h s = k.

Lemma reasons_set_wf rc s : reasons_wf rc -> reasons_wf (fst (reasons_set h rc s)).
Proof.
  intros Hwf. unfold reasons_set. destruct (alookup (h s) (r_keys rc)) eqn:L; cbn [fst]; [exact Hwf|].
  intros k v. cbn [r_keys r_data]. destruct (N.eq_dec k (h s)) as [->|Hne].
  - rewrite alookup_aset_eq. intros [= <-]. rewrite app_length. cbn [length]. split; [lia|].
    exists s. split; [|reflexivity].
    replace (N.to_nat (N.of_nat (length (r_data rc) + 1) - 1)) with (length (r_data rc)) by lia.
    rewrite nth_error_app2 by lia. rewrite Nat.sub_diag. reflexivity.
  - rewrite alookup_aset_neq by exact Hne. intros Hv. destruct (Hwf k v Hv) as [H1 [s' [Hs' Hh]]].
    split; [exact H1|]. exists s'. split; [|exact Hh].
    rewrite nth_error_app1; [exact Hs'|]. apply nth_error_Some. congruence.
Qed.

Lemma reasons_set_get rc s :
  reasons_wf rc ->
  (forall s', In s' (r_data rc) -> h s' = h s -> s' = s) ->
  (N.of_nat (length (r_data rc)) + 1 < two32)%N ->
  reasons_get (fst (reasons_set h rc s)) (snd (reasons_set h rc s) mod two32) = Some s.
Proof.
  intros Hwf Hcol Hlen.
  destruct (reasons_set_wf rc s Hwf _ _ (reasons_set_key rc s)) as (H1 & s' & Hs' & Hh).
  assert (Hlt : (N.to_nat (snd (reasons_set h rc s) - 1) < length (r_data (fst (reasons_set h rc s))))%nat)
    by (apply nth_error_Some; congruence).
  apply nth_error_In in Hs' as Hin.
  (* the index is below 2^32 and points at s', which is s or an older string with the hash of s *)
  destruct (reasons_set_data rc s) as [E|E]; rewrite E in Hin, Hlt.
  - rewrite N.mod_small, reasons_get_nth, Hs' by lia. f_equal. auto.
  - rewrite app_length in Hlt. cbn [length] in Hlt.
    rewrite N.mod_small, reasons_get_nth, Hs' by lia. f_equal.
    apply in_app_or in Hin as [Hin|[<-|[]]]; auto.
Qed.

Lemma step_data_grows c o : grows (rs c) (rs (fst (step c o))).
Proof. rewrite step_rs. destruct o; try apply grows_refl. apply reasons_set_grows. Qed.

Lemma run_data_grows ops c : grows (rs c) (rs (run c ops)).
Proof.
  apply (run_preserves (fun c' => grows (rs c) (rs c'))); [|apply grows_refl].
  intros c' o H. exact (grows_trans _ _ _ H (step_data_grows c' o)).
Qed.

Definition reason_str (rc : reasons) (key : N) : string :=
  match reasons_get rc key with Some s => s | None => EmptyString end.

Lemma kept_answer_eq c v :
  kept_answer c v = AKept (k_rate v) (k_desc v) (k_sev v) (k_link v) (k_span v) (reason_str (rs c) (k_reason v)).
Proof. reflexivity. Qed.

Lemma reason_str_run ops c key :
  (key <= N.of_nat (length (r_data (rs c))))%N -> reason_str (rs (run c ops)) key = reason_str (rs c) key.
Proof.
  intros Hk. unfold reason_str. rewrite (reasons_get_stable _ _ key (run_data_grows ops c) Hk). reflexivity.
Qed.

Lemma step_rs_wf c o : reasons_wf (rs c) -> reasons_wf (rs (fst (step c o))).
Proof. intros Hwf. rewrite step_rs. destruct o; try exact Hwf. apply reasons_set_wf. exact Hwf. Qed.

Lemma run_rs_wf ops c : reasons_wf (rs c) -> reasons_wf (rs (run c ops)).
Proof. exact (run_preserves (fun c => reasons_wf (rs c)) step_rs_wf ops c). Qed.

Lemma step_inv c o : cache_inv c -> cache_inv (fst (step c o)).
Proof.
  (* RecDropped, Drain, Maintain and Advance leave [kept], [kcap] and [rs] alone: the invariant of the new
     state is that of c by conversion *)
  intros Hinv. destruct o; try exact Hinv; try (cbn [SentCache.step]; apply lookup_inv; exact Hinv).
  - cbn [SentCache.step]. destruct Hinv as (Hlru & Hreason & Hkeys).
    pose proof (reasons_set_bound (rs c) reason Hkeys) as Hk'.
    pose proof (Hk' _ _ (reasons_set_key (rs c) reason)) as Hidx.
    destruct (reasons_set_grows (rs c) reason) as [suf Hsuf].
    destruct (reasons_set h (rs c) reason) as [rs' idx]. cbn [fst snd] in Hk', Hidx, Hsuf.
    split; [apply lru_inv_add; exact Hlru|]. split; [|exact Hk'].
    cbn [fst kept rs]. intros k r Hin. apply (In_lru_add _ _ _ _ _ _ Hlru) in Hin as [Hin| ->].
    + apply Hreason in Hin. rewrite Hsuf, app_length. lia.
    + cbn [k_reason]. pose proof (N.mod_le idx two32). unfold two32 in *. lia.
  - destruct (N.eq_dec (per_worker ksz wc) 0) as [E|Hne]; [rewrite resize_zero by exact E; exact Hinv|].
    destruct Hinv as ([Hnd Hlen] & Hreason & Hkeys). unfold cache_inv.
    rewrite (resize_kept c ksz dsz wc Hnd Hne), step_kcap, step_rs, (proj2 (N.eqb_neq _ _) Hne).
    split; [apply lru_inv_firstn; [exact Hnd|lia]|]. split; [|exact Hkeys].
    intros k r Hin. apply Hreason with k. eapply In_firstn. exact Hin.
Qed.

Lemma run_inv ops c : cache_inv c -> cache_inv (run c ops).
Proof. exact (run_preserves cache_inv step_inv ops c). Qed.

Lemma init_inv ksz dsz wc t0 : cache_inv (cache_init slots_of ksz dsz wc t0).
Proof.
  unfold cache_inv, lru_inv, cache_init. cbn [kept kcap rs reasons_init r_data r_keys length alookup akeys map].
  repeat split; [constructor|lia|intros k r []|discriminate].
Qed.

Lemma reasons_init_wf : reasons_wf reasons_init.
Proof. intros k v. discriminate. Qed.

Lemma touched_others_cons x o ops : touched_others x (o :: ops) = touched_others x [o] ++ touched_others x ops.
Proof. destruct o; cbn [touched_others]; try reflexivity; destruct (N.eqb id x); reflexivity. Qed.

Lemma min_cap_le cap ops : (min_cap cap ops <= cap)%N.
Proof.
  revert cap. induction ops as [|o r IH]; intros cap; cbn [min_cap]; [lia|].
  destruct o; try apply IH.
  destruct (N.eqb (per_worker ksz wc) 0); [apply IH|lia].
Qed.

Lemma min_cap_step c o ops : (min_cap (kcap c) (o :: ops) <= min_cap (kcap (fst (step c o))) ops)%N.
Proof.
  rewrite step_kcap. destruct o; cbn [min_cap]; try lia.
  destruct (N.eqb (per_worker ksz wc) 0); lia.
Qed.

(* one step pushes x back by at most the other id it touches; a Resize cuts behind x *)
Lemma step_retained x r T c o :
  cache_inv c -> records_kept x o = false -> retained x r T (kept c) ->
  (card (T ++ touched_others x [o]) < kcap (fst (step c o)))%N ->
  retained x r (T ++ touched_others x [o]) (kept (fst (step c o))).
Proof.
  intros Hinv Ho Hr. rewrite step_kcap.
  destruct o; cbn [touched_others]; try (rewrite app_nil_r; intros _; exact Hr);
    try (intros _; cbn [SentCache.step]; apply lookup_retained; exact Hr).
  - cbn [SentCache.step]. destruct (reasons_set h (rs c) reason) as [rs' idx]. cbn [fst kept].
    apply retained_lru_add; [exact (proj1 Hinv)| |exact Hr].
    cbn [records_kept] in Ho. apply N.eqb_neq in Ho. contradiction.
  - rewrite app_nil_r. destruct (N.eqb_spec (per_worker ksz wc) 0) as [E|Hne]; intros Hc.
    + rewrite resize_zero by exact E. exact Hr.
    + rewrite (resize_kept c ksz dsz wc (proj1 (proj1 Hinv)) Hne).
      apply retained_firstn; [exact (proj1 (proj1 Hinv))|exact Hr|rewrite N2Nat.id; exact Hc].
Qed.

Lemma run_retained x r ops : forall c T,
  cache_inv c -> retained x r T (kept c) ->
  forallb (fun o => negb (records_kept x o)) ops = true ->
  (card (T ++ touched_others x ops) < min_cap (kcap c) ops)%N ->
  retained x r (T ++ touched_others x ops) (kept (run c ops)).
Proof.
  induction ops as [|o rest IH]; intros c T Hinv Hr Hnr Hcard; cbn [SentCache.run].
  - cbn [touched_others]. rewrite app_nil_r. exact Hr.
  - cbn [forallb] in Hnr. apply andb_true_iff in Hnr as [Ho Hnr]. apply negb_true_iff in Ho.
    rewrite touched_others_cons, app_assoc in *.
    pose proof (min_cap_step c o rest). pose proof (min_cap_le (kcap (fst (step c o))) rest).
    pose proof (card_mono _ _ (incl_appl (touched_others x rest) (incl_refl (T ++ touched_others x [o])))).
    apply IH; [apply step_inv; exact Hinv|apply step_retained; [exact Hinv|exact Ho|exact Hr|lia]|exact Hnr|lia].
Qed.

Lemma retention x ops : forall c T r,
  cache_inv c -> alookup x (kept c) = Some r -> incl (before x (kept c)) T ->
  forallb (fun o => negb (records_kept x o)) ops = true ->
  (card (T ++ touched_others x ops) < min_cap (kcap c) ops)%N ->
  exists r', alookup x (kept (run c ops)) = Some r' /\ same_decision r r'.
Proof.
  intros c T r Hinv Hx Hincl Hnr Hcard. apply (run_retained x r ops c T Hinv); [|exact Hnr|exact Hcard].
  split; [exists r; split; [exact Hx|apply same_decision_refl]|exact Hincl].
Qed.

Definition answers_kept (c : cache) (x rate : N) (reason : string) : Prop :=
  (exists d e l s, snd (step c (ChkTrace x)) = AKept rate d e l s reason) /\
  (forall ann, recent_contains x c = false ->
     exists d e l s, snd (step c (ChkSpan x ann)) = AKept rate d e l s reason).

Lemma kept_while_retained c x r T ops :
  cache_inv c -> retained x r T (kept c) ->
  forallb (fun o => negb (records_kept x o)) ops = true ->
  (card (T ++ touched_others x ops) < min_cap (kcap c) ops)%N ->
  let c2 := run c ops in
  chk_check x (chk c2) = false ->
  answers_kept c2 x (k_rate r) (reason_str (rs c) (k_reason r)).
Proof.
  intros Hinv Hr Hnr Hcard c2 Hnd.
  destruct (run_retained x r ops c T Hinv Hr Hnr Hcard) as [(r' & Hx' & Hrate & Hreason) _].
  assert (Hstr : reason_str (rs c2) (k_reason r) = reason_str (rs c) (k_reason r)).
  { apply reason_str_run. destruct Hr as [(r0 & Hx & _ & <-) _].
    exact (proj1 (proj2 Hinv) x r0 (alookup_In _ _ _ Hx)). }
  assert (Hans : forall span, exists d e l s,
            kept_answer c2 (counted span r') = AKept (k_rate r) d e l s (reason_str (rs c) (k_reason r))).
  { intros span. destruct (counted_same span r') as [E1 E2].
    rewrite kept_answer_eq, E1, E2, Hrate, Hreason, Hstr. do 4 eexists. reflexivity. }
  split; [|intros ann Hrc]; cbn [SentCache.step].
  - rewrite (lookup_kept_hit _ None x c2 r' trace_order_ok Hx' Hnd); [apply Hans|].
    rewrite trace_order_no_recent. discriminate.
  - rewrite (lookup_kept_hit _ (Some ann) x c2 r' span_order_ok Hx' Hnd); [apply Hans|]. intros _. exact Hrc.
Qed.

(* C31, kept half, from a record *)
Theorem kept_recent_record c x rate reason d e l sp ops :
  cache_inv c -> reasons_wf (rs c) -> (0 < kcap c)%N ->
  (forall s', In s' (r_data (rs c)) -> h s' = h reason -> s' = reason) ->
  (N.of_nat (length (r_data (rs c))) + 1 < two32)%N ->
  forallb (fun o => negb (records_kept x o)) ops = true ->
  (card (touched_others x ops) < min_cap (kcap c) ops)%N ->
  let c2 := run (fst (step c (RecKept x rate reason d e l sp))) ops in
  chk_check x (chk c2) = false ->
  answers_kept c2 x (store_rate rate) reason.
Proof.
  intros Hinv Hwf Hpos Hcol Hlen Hnr Hcard.
  pose proof (step_inv c (RecKept x rate reason d e l sp) Hinv) as Hinv1.
  pose proof (reasons_set_get (rs c) reason Hwf Hcol Hlen) as Hget.
  revert Hinv1. cbn [SentCache.step]. destruct (reasons_set h (rs c) reason) as [rs' idx]. cbn [fst snd] in *.
  set (v := {| k_rate := store_rate rate; k_reason := (idx mod two32)%N; k_desc := d; k_sev := e; k_link := l; k_span := sp |}).
  assert (Hr : retained x v [] (lru_add (kcap c) x v (kept c))).
  { destruct (lru_add_head (kcap c) x v (kept c) Hpos (proj1 Hinv)) as [t ->]. apply retained_head, same_decision_refl. }
  intros Hinv1 Hnd.
  pose proof (kept_while_retained _ x v [] ops Hinv1 Hr Hnr Hcard Hnd) as H.
  unfold reason_str in H. cbn [rs k_reason k_rate v] in H. rewrite Hget in H. exact H.
Qed.

(* C31, kept half, from a consultation that answered "kept" *)
Theorem kept_recent_consult c x (span : option N) rate d e l s reason ops :
  cache_inv c ->
  let o := match span with Some ann => ChkSpan x ann | None => ChkTrace x end in
  snd (step c o) = AKept rate d e l s reason ->
  forallb (fun o => negb (records_kept x o)) ops = true ->
  (card (touched_others x ops) < min_cap (kcap c) ops)%N ->
  let c2 := run (fst (step c o)) ops in
  chk_check x (chk c2) = false ->
  answers_kept c2 x rate reason.
Proof.
  intros Hinv o Hans Hnr Hcard.
  pose proof (step_inv c o Hinv) as Hinv1.
  assert (Hex : exists v, step c o = (upd_kept c (aset x v (kept c)), kept_answer c v)).
  { unfold o in *. destruct span; cbn [SentCache.step] in *; eapply lookup_kept_origin; eauto using span_order_ok, trace_order_ok. }
  destruct Hex as [v Hv]. rewrite Hv in *. cbn [fst snd] in *.
  rewrite kept_answer_eq in Hans. injection Hans as <- _ _ _ _ <-.
  exact (kept_while_retained _ x v [] ops Hinv1 (retained_head x v v _ [] (same_decision_refl v)) Hnr Hcard).
Qed.

(* C31, resize *)
Theorem resize_newest c ksz dsz wc :
  cache_inv c -> per_worker ksz wc <> 0%N ->
  kept (fst (step c (Resize ksz dsz wc))) = firstn (N.to_nat (per_worker ksz wc)) (kept c).
Proof. intros Hinv. apply resize_kept. exact (proj1 (proj1 Hinv)). Qed.

Definition in_cur (x : N) (c : cache) : Prop := In x (g_items (cur (chk c))).
Definition in_fut (x : N) (c : cache) : Prop := exists f, fut (chk c) = Some f /\ In x (g_items f).
Definition in_q (x : N) (c : cache) : Prop := In x (queue (chk c)).

Lemma fold_insert_items q : forall g,
  g_items (fold_left (fun g x => gen_insert x g) q g) = rev q ++ g_items g.
Proof.
  induction q as [|a q IH]; intros g; cbn [fold_left rev app]; [reflexivity|].
  rewrite IH, <- app_assoc. reflexivity.
Qed.

Lemma drain_cur k x : In x (queue k) \/ In x (g_items (cur k)) -> In x (g_items (cur (chk_drain k))).
Proof.
  intros H. unfold chk_drain. cbn [cur]. rewrite fold_insert_items, in_app_iff, <- in_rev. exact H.
Qed.

Lemma drain_fut k x :
  (exists f, fut k = Some f /\ (In x (queue k) \/ In x (g_items f))) ->
  exists f', fut (chk_drain k) = Some f' /\ In x (g_items f').
Proof.
  intros (f & Hf & H). unfold chk_drain. cbn [fut]. rewrite Hf. eexists. split; [reflexivity|].
  rewrite fold_insert_items, in_app_iff, <- in_rev. exact H.
Qed.

Lemma maintain_norot k : chk_rotates k = false ->
  cur (chk_maintain k) = cur (chk_drain k) /\
  (forall f, fut (chk_drain k) = Some f -> fut (chk_maintain k) = Some f).
Proof.
  unfold chk_rotates, chk_maintain. intros ->. cbn [cur fut]. split; [reflexivity|].
  intros f ->. reflexivity.
Qed.

Lemma full_implies_half k :
  chk_rotates k = true -> load_gt half_num half_den (cur (chk_drain k)) = true.
Proof.
  unfold chk_rotates, load_gt. set (g := cur (chk_drain k)). intros H.
  destruct thresholds_facts as (Hhf & _ & Hfd & Hhd).
  apply N.ltb_lt in H. apply N.ltb_lt.
  (* full_den half_num slots <= half_den full_num slots < half_den full_den count *)
  nia.
Qed.

(* the fresh filter is where Go would have created the future filter in the same call; closed by conversion:
   the model starts a new future filter when [rotation_creates_future], which computes to true (Gen/GenC31.v) *)
Lemma maintain_rotates k : chk_rotates k = true ->
  chk_maintain k = {| cur := match fut (chk_drain k) with Some f => f | None => new_gen slots_of (capa k) end;
                      fut := Some (new_gen slots_of (capa k)); capa := capa k; queue := [] |}.
Proof.
  intros H. pose proof (full_implies_half k H) as Hh.
  unfold chk_rotates in H. unfold SentCache.chk_maintain. rewrite H, Hh.
  destruct (fut (chk_drain k)); reflexivity.
Qed.

Definition draining (o : op) : bool := match o with Drain | Maintain => true | _ => false end.

Definition rot_of (k : checker) (o : op) : bool :=
  match o with Maintain => chk_rotates k | _ => false end.

Lemma rotations_cons c o r :
  rotations c (o :: r) = ((if rot_of (chk c) o then 1 else 0) + rotations (fst (step c o)) r)%nat.
Proof. destruct o; reflexivity. Qed.

Lemma chk_step_idle k o : draining o = false ->
  cur (chk_step k o) = cur k /\ fut (chk_step k o) = fut k /\ incl (queue k) (queue (chk_step k o)).
Proof.
  intros Hd. destruct o; try discriminate; cbn [chk_step]; try (repeat split; apply incl_refl).
  - unfold chk_add. destruct (_ <? _)%N; repeat split; [apply incl_appl|]; apply incl_refl.
  - destruct (N.eqb (per_worker ksz wc) 0); repeat split; apply incl_refl.
Qed.

(* a Maintain may create the future filter; one that exists is treated as by a Drain *)
Lemma chk_step_drains k o : draining o = true -> rot_of k o = false ->
  cur (chk_step k o) = cur (chk_drain k) /\
  (forall f, fut (chk_drain k) = Some f -> fut (chk_step k o) = Some f).
Proof.
  intros Hd Hr. destruct o; try discriminate; cbn [chk_step]; [split; trivial|].
  apply maintain_norot. exact Hr.
Qed.

Lemma step_in_cur x c o : in_cur x c -> rot_of (chk c) o = false -> in_cur x (fst (step c o)).
Proof.
  unfold in_cur. rewrite step_chk. intros H Hr. destruct (draining o) eqn:Hd.
  - rewrite (proj1 (chk_step_drains _ _ Hd Hr)). apply drain_cur. right. exact H.
  - rewrite (proj1 (chk_step_idle _ _ Hd)). exact H.
Qed.

Lemma step_in_fut x c o : in_fut x c -> rot_of (chk c) o = false -> in_fut x (fst (step c o)).
Proof.
  unfold in_fut. rewrite step_chk. intros (f & Hf & Hin) Hr. destruct (draining o) eqn:Hd.
  - destruct (drain_fut (chk c) x) as (f' & Hf' & Hin'); [eauto|].
    exists f'. split; [apply (proj2 (chk_step_drains _ _ Hd Hr)); exact Hf'|exact Hin'].
  - destruct (chk_step_idle (chk c) o Hd) as (_ & -> & _). eauto.
Qed.

Lemma step_rot_fut_cur x c : in_fut x c -> chk_rotates (chk c) = true -> in_cur x (fst (step c Maintain)).
Proof.
  unfold in_fut, in_cur. rewrite step_chk. intros (f & Hf & Hin) Hr.
  destruct (drain_fut (chk c) x) as (f' & Hf' & Hin'); [eauto|].
  cbn [chk_step]. rewrite (maintain_rotates _ Hr), Hf'. exact Hin'.
Qed.

Lemma run_in_cur x ops : forall c,
  in_cur x c -> rotations c ops = 0%nat \/ in_fut x c /\ (rotations c ops <= 1)%nat -> in_cur x (run c ops).
Proof.
  induction ops as [|o r IH]; intros c Hc Hr; cbn [SentCache.run]; [exact Hc|].
  rewrite rotations_cons in Hr. destruct (rot_of (chk c) o) eqn:E.
  - destruct o; try discriminate. destruct Hr as [Hr|[Hf Hr]]; [lia|].
    apply IH; [apply step_rot_fut_cur; assumption|left; lia].
  - apply IH; [apply step_in_cur; assumption|].
    destruct Hr as [Hr|[Hf Hr]]; [left; lia|right; split; [apply step_in_fut; assumption|lia]].
Qed.

Lemma step_in_q x c o : in_q x c -> draining o = false -> in_q x (fst (step c o)).
Proof. unfold in_q. rewrite step_chk. intros H Hd. apply (chk_step_idle _ _ Hd). exact H. Qed.

Lemma run_in_q x ops : forall c, in_q x c -> forallb (fun o => negb (draining o)) ops = true -> in_q x (run c ops).
Proof.
  induction ops as [|o r IH]; intros c H Hd; cbn [SentCache.run]; [exact H|].
  cbn [forallb] in Hd. apply andb_true_iff in Hd as [Ho Hd]. apply negb_true_iff in Ho.
  apply IH; [apply step_in_q; assumption|exact Hd].
Qed.

Lemma recdropped_in_q x c :
  (N.of_nat (length (queue (chk c))) < add_queue_depth)%N -> in_q x (fst (step c (RecDropped x))).
Proof.
  intros Hlt. unfold in_q. rewrite step_chk. cbn [chk_step]. unfold chk_add.
  destruct (N.ltb_spec (N.of_nat (length (queue (chk c)))) add_queue_depth) as [_|H]; [|lia].
  cbn [queue]. apply in_or_app. right. left. reflexivity.
Qed.

Lemma drained_in_cur x c o :
  in_q x c -> draining o = true -> rot_of (chk c) o = false -> in_cur x (fst (step c o)).
Proof.
  unfold in_q, in_cur. rewrite step_chk. intros H Hd Hr.
  rewrite (proj1 (chk_step_drains _ _ Hd Hr)). apply drain_cur. left. exact H.
Qed.

Lemma drain_in_fut x c : in_q x c -> fut (chk c) <> None -> in_fut x (fst (step c Drain)).
Proof.
  unfold in_q, in_fut. rewrite step_chk. intros H Hf.
  destruct (fut (chk c)) as [f|] eqn:E; [|contradiction]. apply drain_fut. eauto.
Qed.

(* C31, dropped half *)
Theorem dropped_wins c x : chk_check x (chk c) = true ->
  snd (step c (ChkTrace x)) = ADropped /\ forall ann, snd (step c (ChkSpan x ann)) = ADropped.
Proof.
  intros H. split; [|intros ann]; cbn [SentCache.step].
  - apply lookup_dropped_wins; [exact trace_order_ok|exact H].
  - apply lookup_dropped_wins; [exact span_order_ok|exact H].
Qed.

Theorem dropped_until_rotation c x ops1 ops2 :
  (N.of_nat (length (queue (chk c))) < add_queue_depth)%N ->
  forallb (fun o => negb (draining o)) ops1 = true ->
  let c1 := run (fst (step c (RecDropped x))) ops1 in
  let c2 := fst (step c1 Drain) in
  (rotations c2 ops2 = 0%nat \/ (fut (chk c1) <> None /\ (rotations c2 ops2 <= 1)%nat)) ->
  let c3 := run c2 ops2 in
  snd (step c3 (ChkTrace x)) = ADropped /\ forall ann, snd (step c3 (ChkSpan x ann)) = ADropped.
Proof.
  intros Hq Hnd c1 c2 Hrot c3. apply dropped_wins. apply mem_N_In. change (in_cur x c3).
  assert (Hin : in_q x c1) by (apply run_in_q; [apply recdropped_in_q; exact Hq|exact Hnd]).
  apply run_in_cur; [apply drained_in_cur; [exact Hin|reflexivity|reflexivity]|].
  destruct Hrot as [H0|[Hf H1]]; [left; exact H0|right; split; [apply drain_in_fut; assumption|exact H1]].
Qed.

Theorem dropped_after_maintain c x : in_q x c -> chk_rotates (chk c) = false -> in_cur x (fst (step c Maintain)).
Proof. intros H Hr. apply drained_in_cur; [exact H|reflexivity|exact Hr]. Qed.

(* the hypothesis on the slots is what cuckoofilter.NewFilter guarantees (see [thresholds_facts]) *)
Theorem rotation_only_when_filled k :
  chk_rotates k = true ->
  let g := cur (chk_drain k) in
  (100 * g_cap g <= 96 * g_slots g)%N -> (g_cap g < g_count g)%N.
Proof.
  intros H g Hs. unfold chk_rotates, load_gt in H. fold g in H.
  destruct thresholds_facts as (_ & H96 & Hfd & _).
  apply N.ltb_lt in H.
  (* 100 full_den cap <= 96 full_den slots <= 100 full_num slots < 100 full_den count *)
  nia.
Qed.

(* the filter installed by a rotation is never the "nil" of the Go code: a load above the full threshold
   is above the half threshold too, so the future filter exists or is created in the same call *)
Theorem rotation_installs_a_filter k :
  chk_rotates k = true ->
  (exists f, fut (chk_drain k) = Some f /\ cur (chk_maintain k) = f) \/
  (fut (chk_drain k) = None /\ cur (chk_maintain k) = new_gen slots_of (capa k)
   /\ load_gt half_num half_den (cur (chk_drain k)) = true).
Proof.
  intros H. rewrite (maintain_rotates k H). cbn [cur].
  destruct (fut (chk_drain k)) as [f|]; [left; exists f; split; reflexivity|right].
  repeat split. apply full_implies_half. exact H.
Qed.

(* after a rotation a future generation exists again: drops recorded from then on go into both generations
   and survive the next rotation (dropped_until_rotation with its second alternative) *)
Theorem rotation_creates_a_future k :
  chk_rotates k = true -> fut (chk_maintain k) = Some (new_gen slots_of (capa k)).
Proof.
  intros H. rewrite (maintain_rotates k H). reflexivity.
Qed.

End Cache.

