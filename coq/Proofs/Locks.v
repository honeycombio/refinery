(* C35 — soundness of the lockset / happens-before discipline of Model/Locks.v: first for runs in which every
   conflicting pair is covered by a lock or an edge, then for the runs of any program an accepted table
   describes. *)
From Refinery Require Import Lib.Base Model.Locks.
Local Open Scope nat_scope.

Lemma at_inj tr i a b : at_ tr i a -> at_ tr i b -> a = b.
Proof. unfold at_. intros H1 H2. rewrite H1 in H2. injection H2 as ->. reflexivity. Qed.

Lemma ev_eq_dec (a b : ev) : {a = b} + {a <> b}.
Proof.
  decide equality; try apply N.eq_dec; try apply string_dec; try apply Bool.bool_dec;
    try apply Nat.eq_dec.
Qed.

Lemma at_dec tr i e : {at_ tr i e} + {~ at_ tr i e}.
Proof.
  unfold at_. destruct (nth_error tr i) as [x|].
  - destruct (ev_eq_dec x e) as [->|Hne]; [left; reflexivity|right; intros [= H]; contradiction].
  - right. discriminate.
Qed.

(* [common_lock_hb] uses it to find the release between two acquisitions of a lock *)
Lemma range_split tr e a b :
  (forall r, a < r < b -> ~ at_ tr r e) \/ (exists r, a < r < b /\ at_ tr r e).
Proof.
  induction b as [|b IH].
  - left. intros r Hr. lia.
  - destruct IH as [Hnone|[r [Hr Hat]]].
    + destruct (at_dec tr b e) as [Hb|Hb].
      * destruct (Nat.lt_ge_cases a b) as [Hab|Hab].
        -- right. exists b. split; [lia|exact Hb].
        -- left. intros r Hr. lia.
      * left. intros r Hr. destruct (Nat.eq_dec r b) as [->|Hne]; [exact Hb|].
        apply Hnone. lia.
    + right. exists r. split; [lia|exact Hat].
Qed.

Lemma holds_mono tr i j t o m x :
  holds tr j t o m x -> forall a, a < i -> i <= j -> at_ tr a (Acq t o m x) ->
  (forall r, a < r < j -> ~ at_ tr r (Rel t o m x)) -> holds tr i t o m x.
Proof.
  intros _ a Hai Hij Hacq Hno. exists a. split; [exact Hai|]. split; [exact Hacq|].
  intros r Hr. apply Hno. lia.
Qed.

Lemma sw_rel_acq t o m x t' x' : (x = true \/ x' = true) -> sw (Rel t o m x) (Acq t' o m x') = true.
Proof.
  intros H. unfold sw. rewrite N.eqb_refl, String.eqb_refl.
  destruct x; [reflexivity|]. destruct x'; [reflexivity|]. destruct H; discriminate.
Qed.

(* Whoever acquired second found the lock free, so the first holder had released by then; that
   release comes after the first holder's access, which was made under the lock. *)
Lemma common_lock_hb tr i j t t' o s s' m x x' :
  wf_locks tr -> i < j -> at_ tr i (Acc t o s) -> at_ tr j (Acc t' o s') -> t <> t' ->
  holds tr i t o m x -> holds tr j t' o m x' -> (x = true \/ x' = true) ->
  hb tr i j.
Proof.
  intros Hwf Hij Hi Hj Hne [a [Hai [Hacqa Hnoa]]] [a' [Haj [Hacqa' Hnoa']]] Hx.
  assert (Hexcl : ~ (x = false /\ x' = false)) by (intros [-> ->]; destruct Hx; discriminate).
  destruct (Nat.lt_trichotomy a a') as [Haa|[<-|Haa]].
  - destruct (range_split tr (Rel t o m x) a a') as [Hnone|[r [Hr Hrel]]].
    { exfalso. apply Hexcl, and_comm. eapply Hwf; [exact Hacqa'|]. exists a. repeat split; eassumption. }
    assert (Hir : i < r).
    { destruct (Nat.lt_trichotomy r i) as [H|[->|H]]; [|discriminate (at_inj _ _ _ _ Hi Hrel)|exact H].
      exfalso. apply (Hnoa r); [lia|exact Hrel]. }
    apply hb_trans with r; [apply (hb_po _ _ _ _ _ Hir Hi Hrel); reflexivity|].
    apply hb_trans with a'; [|apply (hb_po _ _ _ _ _ Haj Hacqa' Hj); reflexivity].
    apply (hb_sw _ _ _ _ _ (proj2 Hr) Hrel Hacqa'), sw_rel_acq, Hx.
  - pose proof (at_inj _ _ _ _ Hacqa Hacqa') as E. injection E as E _. contradiction.
  - exfalso. apply Hexcl. eapply Hwf; [exact Hacqa|]. exists a'.
    split; [exact Haa|]. split; [exact Hacqa'|]. intros r Hr. apply Hnoa'. lia.
Qed.

Lemma race_free_no_race tbl tr : race_free tbl tr -> forall i j, ~ race tbl tr i j.
Proof. intros H i j [Hc Hn]. exact (Hn (H i j Hc)). Qed.

Lemma edge_covered_lt tr i j : edge_covered tr i j -> i < j.
Proof. intros (p & q & k & a & b & _ & _ & Hip & Hpq & Hqj & _). lia. Qed.

Lemma edge_covered_hb tr i j : edge_covered tr i j -> hb tr i j.
Proof.
  intros (p & q & k & a & b & Hi & Hj & Hip & Hpq & Hqj & Hp & Hq).
  apply hb_trans with p; [apply (hb_po _ _ _ _ _ Hip Hi Hp); reflexivity|].
  apply hb_trans with q; [|apply (hb_po _ _ _ _ _ Hqj Hq Hj); reflexivity].
  apply (hb_sw _ _ _ _ _ Hpq Hp Hq). apply N.eqb_refl.
Qed.

Section CoveredRuns.
  Variable tbl : list site.

  Lemma lock_covered_hb tr i j :
    wf_locks tr -> conflict tbl tr i j -> lock_covered tr i j -> hb tr i j.
  Proof.
    intros Hwf (t & t' & o & s & s' & a & b & Hij & Hi & Hj & Hne & _)
           (u & u' & o2 & s2 & s2' & m & x & x' & Hi2 & Hj2 & Hh1 & Hh2 & Hx).
    pose proof (at_inj _ _ _ _ Hi Hi2) as E1. injection E1 as <- <- <-.
    pose proof (at_inj _ _ _ _ Hj Hj2) as E2. injection E2 as <- <-.
    exact (common_lock_hb _ _ _ _ _ _ _ _ _ _ _ Hwf Hij Hi Hj Hne Hh1 Hh2 Hx).
  Qed.

  (* Pairs of atomic accesses are not conflicts by definition. *)
  Theorem lockset_sound tr :
    wf_locks tr ->
    (forall i j, conflict tbl tr i j -> lock_covered tr i j \/ edge_covered tr i j) ->
    race_free tbl tr.
  Proof.
    intros Hwf Hcov i j Hc. destruct (Hcov i j Hc) as [H|H].
    - apply lock_covered_hb; assumption.
    - apply edge_covered_hb; assumption.
  Qed.

  Corollary lockset_sound_no_race tr :
    wf_locks tr ->
    (forall i j, conflict tbl tr i j -> lock_covered tr i j \/ edge_covered tr i j) ->
    forall i j, ~ race tbl tr i j.
  Proof. intros Hwf Hcov. apply race_free_no_race, lockset_sound; assumption. Qed.
End CoveredRuns.

Lemma common_lock_spec a b :
  common_lock a b = true ->
  exists m x x', In (m, x) (s_locks a) /\ In (m, x') (s_locks b) /\ (x = true \/ x' = true).
Proof.
  unfold common_lock. rewrite existsb_exists. intros ([m x] & Hin & H).
  rewrite existsb_exists in H. destruct H as ([m' x'] & Hin' & H).
  rewrite andb_true_iff, String.eqb_eq, orb_true_iff in H. destruct H as [<- Hx].
  exists m, x, x'. auto.
Qed.

Lemma same_single_spec singleton a b :
  same_single singleton a b = true ->
  exists r, s_roles a = [r] /\ s_roles b = [r] /\ singleton (s_struct a) r = true.
Proof.
  unfold same_single. destruct (s_roles a) as [|r [|? ?]]; try discriminate.
  destruct (s_roles b) as [|r' [|? ?]]; try discriminate.
  intros H. apply andb_true_iff in H. destruct H as [Hr Hs]. apply String.eqb_eq in Hr. subst r'.
  exists r. auto.
Qed.

Lemma same_loc_struct a b : same_loc a b = true -> s_struct a = s_struct b.
Proof. unfold same_loc. intros H. apply andb_true_iff in H. destruct H as [H _]. apply String.eqb_eq. exact H. Qed.

Lemma same_loc_sym a b : same_loc a b = same_loc b a.
Proof. unfold same_loc. rewrite (String.eqb_sym (s_struct a)), (String.eqb_sym (s_field a)). reflexivity. Qed.

Section TableRuns.
  Variable tbl : list site.
  Variable singleton : string -> string -> bool.
  Variable owner : obj -> string -> string -> tid.
  Variable pown : obj -> N -> tid.
  Variable gate : obj -> N -> N.

  (* The two cannot be early sites of one phase (those run on the phase owner), so the second is of a later
     phase; its goroutine came through the gate of the first one's phase, which the phase owner opens after its
     early accesses. *)
  Lemma early_before_edge tr i j t t' o s s' a b :
    wf_edges tr -> conforms tbl singleton owner pown gate tr ->
    at_ tr i (Acc t o s) -> at_ tr j (Acc t' o s') -> t <> t' ->
    site_at tbl s = Some a -> site_at tbl s' = Some b ->
    early_before a b = true -> edge_covered tr i j.
  Proof.
    intros Hwe [_ _ Cearly Clate _] Hi Hj Hne Ha Hb Heb.
    unfold early_before in Heb. rewrite andb_true_iff, negb_true_iff, orb_true_iff in Heb.
    destruct Heb as [Hra Hord]. destruct (Cearly _ _ _ _ _ Hi Ha Hra) as [Et Hposts].
    destruct Hord as [Hlt|Hsame].
    - apply N.ltb_lt in Hlt.
      assert (Hne' : t' <> pown o (s_phase a)) by congruence.
      destruct (Clate _ _ _ _ _ _ Hj Hb Hlt Hne') as [q [Hqj Hq]].
      destruct (Hwe q t' _ Hq) as [p [tp [Hpq Hp]]].
      destruct (Hposts p tp Hp) as [-> Hip].
      exists p, q, (gate o (s_phase a)), (Acc t o s), (Acc t' o s'). repeat split; assumption.
    - exfalso. rewrite andb_true_iff, negb_true_iff, N.eqb_eq in Hsame. destruct Hsame as [Hrb Heq].
      destruct (Cearly _ _ _ _ _ Hj Hb Hrb) as [Et' _]. congruence.
  Qed.

  (* Which of the two accesses comes first in the run plays no part. *)
  Lemma pair_ok_covered tr i j t t' o s s' a b :
    wf_edges tr -> conforms tbl singleton owner pown gate tr ->
    at_ tr i (Acc t o s) -> at_ tr j (Acc t' o s') -> t <> t' ->
    site_at tbl s = Some a -> site_at tbl s' = Some b ->
    same_loc a b = true -> kinds_conflict (s_kind a) (s_kind b) = true -> pair_ok singleton a b = true ->
    lock_covered tr i j \/ edge_covered tr i j \/ edge_covered tr j i.
  Proof.
    intros Hwe Hcf Hi Hj Hne Ha Hb Hloc Hk Hpo.
    unfold pair_ok in Hpo. rewrite Hloc, Hk in Hpo. cbn [negb orb] in Hpo. rewrite !orb_true_iff in Hpo.
    assert (Hloc' : same_loc b a = true) by (rewrite same_loc_sym; exact Hloc).
    pose proof (not_eq_sym Hne) as Hne'.
    destruct Hpo as [[[[[Hab|Hba]|Hfab]|Hfba]|Hlock]|Hsingle].
    - right. left. eapply early_before_edge; eassumption.
    - right. right. eapply early_before_edge; eassumption.
    - right. left. eapply cf_final; eassumption.
    - right. right. eapply cf_final; eassumption.
    - left. destruct (common_lock_spec a b Hlock) as (m & x & x' & Hma & Hmb & Hx).
      exists t, t', o, s, s', m, x, x'. repeat split; try assumption; eapply cf_locks; eassumption.
    - (* same singleton role: the same goroutine *)
      exfalso. destruct (same_single_spec singleton a b Hsingle) as (r & Hra & Hrb & Hs).
      assert (Et : t = owner o (s_struct a) r) by (eapply cf_single; eassumption).
      rewrite (same_loc_struct a b Hloc) in Hs, Et.
      assert (Et' : t' = owner o (s_struct b) r) by (eapply cf_single; eassumption). congruence.
  Qed.

  Lemma well_protected_pair a b :
    well_protected singleton tbl = true -> In a tbl -> In b tbl -> pair_ok singleton a b = true.
  Proof.
    unfold well_protected. rewrite forallb_forall. intros H Ha Hb.
    specialize (H a Ha). rewrite forallb_forall in H. exact (H b Hb).
  Qed.

  Theorem table_sound :
    well_protected singleton tbl = true ->
    forall tr, wf_locks tr -> wf_edges tr -> conforms tbl singleton owner pown gate tr ->
    race_free tbl tr.
  Proof.
    intros Hwp tr Hwl Hwe Hcf. apply lockset_sound; [exact Hwl|].
    intros i j (t & t' & o & s & s' & a & b & Hij & Hi & Hj & Hne & Ha & Hb & Hloc & Hk).
    pose proof (well_protected_pair a b Hwp (nth_error_In _ _ Ha) (nth_error_In _ _ Hb)) as Hpo.
    destruct (pair_ok_covered tr i j t t' o s s' a b Hwe Hcf Hi Hj Hne Ha Hb Hloc Hk Hpo) as [H|[H|H]]; auto.
    (* an edge from j to i, but i < j *)
    apply edge_covered_lt in H. lia.
  Qed.

  Corollary table_sound_no_race :
    well_protected singleton tbl = true ->
    forall tr, wf_locks tr -> wf_edges tr -> conforms tbl singleton owner pown gate tr ->
    forall i j, ~ race tbl tr i j.
  Proof. intros Hwp tr H1 H2 H3. apply race_free_no_race, table_sound; assumption. Qed.
End TableRuns.

Lemma forallb_filter_nil {A} (f : A -> bool) l : forallb f l = true <-> filter (fun x => negb (f x)) l = [].
Proof.
  induction l as [|x r IH]; cbn [forallb filter]; [tauto|].
  destruct (f x); cbn [negb andb]; [exact IH|split; discriminate].
Qed.

Lemma forallb2_flat_map_nil {A B} (ok : A -> B -> bool) inner outer :
  forallb (fun a => forallb (ok a) inner) outer = true <->
  flat_map (fun a => map (pair a) (filter (fun b => negb (ok a b)) inner)) outer = [].
Proof.
  induction outer as [|a r IH]; cbn [forallb flat_map]; [tauto|].
  rewrite andb_true_iff, IH, forallb_filter_nil. split.
  - intros [-> ->]. reflexivity.
  - intros E. apply app_eq_nil in E. destruct E as [E1 E2]. apply map_eq_nil in E1. auto.
Qed.

Lemma well_protected_bad_pairs singleton tbl :
  well_protected singleton tbl = true <-> bad_pairs singleton tbl = [].
Proof. apply forallb2_flat_map_nil. Qed.
