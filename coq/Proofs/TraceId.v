(* Proofs about Model/TraceId.v (C21).  Both scans are folds over the fields of an event; [inv c pre s] says
   that the state [s] reached after the fields [pre] holds what the specification reads off [pre].  Appending
   a field with a fresh key changes those readings in a way that depends only on the key and on the string
   the value holds; [upd] is the state update that follows these equations, the map scan makes it at every
   field or leaves the state alone where the string is empty, and the msgpack scan differs only where the
   outcome does not look. *)
From Refinery Require Import Lib.Base Model.TraceId.
Local Open Scope string_scope.
Local Open Scope list_scope.

(* Model/TraceId.v has its own [slookup], [smem] and [sindex]. *)
Lemma slookup_app {V} k (a b : list (string * V)) :
  slookup k (a ++ b) = match slookup k a with Some v => Some v | None => slookup k b end.
Proof.
  induction a as [|[k' v] r IH]; cbn [app slookup]; [reflexivity|].
  destruct (String.eqb k' k); [reflexivity|exact IH].
Qed.

Lemma slookup_some_in {V} k (m : list (string * V)) v : slookup k m = Some v -> In (k, v) m.
Proof.
  induction m as [|[k' v'] r IH]; cbn [slookup]; [discriminate|].
  destruct (String.eqb k' k) eqn:E; [|intros H; right; exact (IH H)].
  apply String.eqb_eq in E. subst k'. intros H. injection H as ->. left. reflexivity.
Qed.

Lemma slookup_None {V} k (m : list (string * V)) : slookup k m = None <-> ~ In k (map fst m).
Proof.
  induction m as [|[k' v] r IH]; cbn [slookup map fst In]; [tauto|].
  destruct (String.eqb k' k) eqn:E.
  - apply String.eqb_eq in E. split; [discriminate|tauto].
  - apply String.eqb_neq in E. tauto.
Qed.

Lemma slookup_in_nodup {V} (m : list (string * V)) k v :
  NoDup (map fst m) -> In (k, v) m -> slookup k m = Some v.
Proof.
  induction m as [|[k' v'] r IH]; cbn [map fst slookup]; intros Hnd Hin; [destruct Hin|].
  inversion Hnd as [|? ? Hn Hr]; subst. destruct Hin as [Heq|Hin].
  - injection Heq as -> ->. rewrite String.eqb_refl. reflexivity.
  - destruct (String.eqb k' k) eqn:E; [|exact (IH Hr Hin)].
    apply String.eqb_eq in E. subst k'. destruct Hn. exact (in_map fst _ _ Hin).
Qed.

Lemma slookup_neq {V} k n (m : list (string * V)) : slookup k m <> slookup n m -> String.eqb k n = false.
Proof. intros H. apply String.eqb_neq. intros ->. apply H. reflexivity. Qed.

Lemma perm_same_lookup {V} (m m' : list (string * V)) k :
  Permutation.Permutation m m' -> NoDup (map fst m) -> slookup k m = slookup k m'.
Proof.
  intros P Hnd. pose proof (Permutation.Permutation_map fst P) as Pk.
  symmetry. destruct (slookup k m) as [v|] eqn:L.
  - apply slookup_in_nodup; [exact (Permutation.Permutation_NoDup Pk Hnd)|].
    exact (Permutation.Permutation_in _ P (slookup_some_in _ _ _ L)).
  - apply slookup_None. apply slookup_None in L. intros Hin. apply L.
    exact (Permutation.Permutation_in _ (Permutation.Permutation_sym Pk) Hin).
Qed.

Lemma smem_In k l : smem k l = true <-> In k l.
Proof.
  unfold smem. rewrite existsb_exists. split.
  - intros (x & Hin & E). apply String.eqb_eq in E. subst x. exact Hin.
  - intros Hin. exists k. split; [exact Hin|apply String.eqb_refl].
Qed.

Lemma sindex_from_ge i k l idx : sindex_from i k l = Some idx -> (i <= idx)%nat.
Proof.
  revert i. induction l as [|x r IH]; intros i H; cbn [sindex_from] in H; [discriminate|].
  destruct (String.eqb x k); [injection H as <-; lia|]. specialize (IH _ H). lia.
Qed.

Lemma sindex_some_in k l i idx : sindex_from i k l = Some idx -> In k l.
Proof.
  revert i. induction l as [|x r IH]; intros i H; cbn [sindex_from] in H; [discriminate|].
  destruct (String.eqb x k) eqn:E; [apply String.eqb_eq in E; left; exact E|right; exact (IH _ H)].
Qed.

(* all that the specification reads of a value *)
Definition sval (v : val) : string := match v with VStr x => x | _ => "" end.

Lemma str_at_sval k fs : str_at k fs = match slookup k fs with Some v => sval v | None => "" end.
Proof. unfold str_at, sval. destruct (slookup k fs) as [[]|]; reflexivity. Qed.

Lemma str_at_fresh k fs : slookup k fs = None -> str_at k fs = "".
Proof. intros H. rewrite str_at_sval, H. reflexivity. Qed.

Lemma str_at_snoc n fs k v :
  slookup k fs = None ->
  str_at n (fs ++ [(k, v)]) = if String.eqb k n then sval v else str_at n fs.
Proof.
  intros Hk. rewrite !str_at_sval, slookup_app. cbn [slookup].
  destruct (String.eqb k n) eqn:E.
  - apply String.eqb_eq in E. subst n. rewrite Hk. reflexivity.
  - destruct (slookup n fs); reflexivity.
Qed.

Lemma all_empty_snoc names fs k v :
  slookup k fs = None ->
  forallb (fun n => is_empty (str_at n (fs ++ [(k, v)]))) names =
  if smem k names && negb (is_empty (sval v)) then false
  else forallb (fun n => is_empty (str_at n fs)) names.
Proof.
  intros Hk. unfold smem. induction names as [|n r IH]; [reflexivity|].
  cbn [forallb existsb]. rewrite IH, (str_at_snoc n fs k v Hk), (String.eqb_sym n k).
  destruct (String.eqb k n) eqn:E.
  - apply String.eqb_eq in E. subst n. rewrite (str_at_fresh k fs Hk).
    destruct (is_empty (sval v)), (existsb (fun x => String.eqb x k) r); reflexivity.
  - cbn [orb]. destruct (existsb (fun x => String.eqb x k) r && negb (is_empty (sval v)));
      [apply andb_false_r|reflexivity].
Qed.

(* [first_nonempty] in the two forms the clauses of C21 take *)
Lemma first_nonempty_some (f : string -> string) names :
  is_empty (first_nonempty (map f names)) = false <-> exists n, In n names /\ is_empty (f n) = false.
Proof.
  induction names as [|n r IH]; cbn [map first_nonempty].
  - split; [discriminate|intros (n & [] & _)].
  - destruct (is_empty (f n)) eqn:E.
    + rewrite IH. split; intros (m & Hin & Hm); exists m; (split; [|exact Hm]).
      * right. exact Hin.
      * destruct Hin as [->|Hin]; [congruence|exact Hin].
    + split; [intros _; exists n; split; [left; reflexivity|exact E]|intros _; exact E].
Qed.

Lemma first_nonempty_nth (f : string -> string) names : forall i n,
  nth_error names i = Some n -> is_empty (f n) = false ->
  (forall j m, (j < i)%nat -> nth_error names j = Some m -> is_empty (f m) = true) ->
  first_nonempty (map f names) = f n.
Proof.
  induction names as [|x r IH]; intros i n Hn He Hlt; [destruct i; discriminate|].
  cbn [map first_nonempty]. destruct i as [|i'].
  - cbn [nth_error] in Hn. injection Hn as ->. rewrite He. reflexivity.
  - rewrite (Hlt 0%nat x (Nat.lt_0_succ _) eq_refl).
    apply (IH i' n); [exact Hn|exact He|]. intros j m Hj Hm. apply (Hlt (S j) m); [lia|exact Hm].
Qed.

(* what fieldTraceID / fieldTraceIDIdx are to hold: the first configured trace-ID field with a
   non-empty string and its position (counted from [i]; past the end when there is none) *)
Fixpoint best_from (i : nat) (names : list string) (fs : list field) : string * nat :=
  match names with
  | [] => ("", i)
  | n :: r => if is_empty (str_at n fs) then best_from (S i) r fs else (str_at n fs, i)
  end.

Lemma best_from_ge i names fs : (i <= snd (best_from i names fs))%nat.
Proof.
  revert i. induction names as [|n r IH]; intros i; cbn [best_from snd]; [lia|].
  destruct (is_empty (str_at n fs)); [specialize (IH (S i)); lia|cbn [snd]; lia].
Qed.

Lemma best_from_first i names fs :
  fst (best_from i names fs) = first_nonempty (map (fun n => str_at n fs) names).
Proof.
  revert i. induction names as [|n r IH]; intros i; cbn [best_from map first_nonempty fst]; [reflexivity|].
  destruct (is_empty (str_at n fs)); [apply IH|reflexivity].
Qed.

Lemma best_from_nil i names : best_from i names [] = ("", (i + length names)%nat).
Proof.
  revert i. induction names as [|n r IH]; intros i; cbn [best_from length]; [f_equal; lia|].
  change (str_at n []) with "". cbn [is_empty String.eqb]. rewrite IH. f_equal. lia.
Qed.

(* A new non-empty string wins exactly when its name is configured before the best so far: the
   comparison of positions that both scans make. *)
Lemma best_from_snoc names : forall i fs k v,
  slookup k fs = None ->
  best_from i names (fs ++ [(k, v)]) =
  match sindex_from i k names with
  | Some idx => if negb (is_empty (sval v)) && (idx <? snd (best_from i names fs))%nat
                then (sval v, idx) else best_from i names fs
  | None => best_from i names fs
  end.
Proof.
  induction names as [|n r IH]; intros i fs k v Hk; cbn [best_from sindex_from]; [reflexivity|].
  rewrite (str_at_snoc n fs k v Hk), (String.eqb_sym n k).
  destruct (String.eqb k n) eqn:E.
  - apply String.eqb_eq in E. subst n. rewrite (str_at_fresh k fs Hk). cbn [is_empty String.eqb].
    destruct (is_empty (sval v)) eqn:Ev; cbn [negb andb].
    + rewrite (IH (S i) fs k v Hk), Ev. destruct (sindex_from (S i) k r); reflexivity.
    + pose proof (best_from_ge (S i) r fs) as Hge.
      replace (i <? snd (best_from (S i) r fs))%nat with true; [reflexivity|].
      symmetry. apply Nat.ltb_lt. lia.
  - destruct (is_empty (str_at n fs)) eqn:En; [exact (IH (S i) fs k v Hk)|].
    destruct (sindex_from (S i) k r) as [idx|] eqn:Ei; [|reflexivity].
    apply sindex_from_ge in Ei. cbn [snd].
    replace (idx <? i)%nat with false; [rewrite andb_false_r; reflexivity|].
    symmetry. apply Nat.ltb_ge. lia.
Qed.

(* the test "no entry under this name" of [cfg_ok] and [ev_ok] *)
Lemma absent_test {A} (o : option A) : match o with None => true | Some _ => false end = true <-> o = None.
Proof. destruct o; split; congruence. Qed.

(* That the root flag is a reserved name of boolean kind is not needed of [cfg_ok] and [table_ok]:
   [ev_ok] keeps the flag out of the event, and a field's key is then known to differ from it
   ([ff_not_root]). *)
Record cfg_facts (c : idcfg) : Prop := {
  cf_trace_free : forall n, In n (trace_names c) -> slookup n (metas c) = None;
  cf_parent_free : forall n, In n (parent_names c) -> slookup n (metas c) = None;
  cf_disjoint : forall n, In n (trace_names c) -> smem n (parent_names c) = false;
  cf_tid : slookup (k_trace_id c) (metas c) = Some MString;
  cf_sig : slookup (k_signal c) (metas c) = Some MString;
  cf_tid_sig : String.eqb (k_trace_id c) (k_signal c) = false;
  cf_prefix : forall k m, slookup k (metas c) = Some m -> String.prefix (meta_prefix c) k = true
}.

Lemma cfg_facts_of c : cfg_ok c = true -> table_ok c = true -> cfg_facts c.
Proof.
  unfold cfg_ok, table_ok. rewrite !andb_true_iff, !forallb_forall, negb_true_iff.
  intros [Hfree Hdis] [[Hk Hne] Hpre].
  assert (Hf : forall n, In n (trace_names c ++ parent_names c) -> slookup n (metas c) = None)
    by (intros n Hin; apply absent_test, Hfree, Hin).
  destruct (slookup (k_trace_id c) (metas c)) as [[]|] eqn:E1; try discriminate.
  destruct (slookup (k_signal c) (metas c)) as [[]|] eqn:E2; try discriminate.
  constructor; try assumption.
  - intros n Hin. apply Hf, in_or_app. left. exact Hin.
  - intros n Hin. apply Hf, in_or_app. right. exact Hin.
  - intros n Hin. apply negb_true_iff, Hdis, Hin.
  - intros k m Hl. exact (Hpre (k, m) (slookup_some_in _ _ _ Hl)).
Qed.

Lemma reserved_not_configured c k m :
  cfg_facts c -> slookup k (metas c) = Some m ->
  sindex k (trace_names c) = None /\ smem k (parent_names c) = false.
Proof.
  intros F Hm. split.
  - destruct (sindex k (trace_names c)) as [idx|] eqn:E; [|reflexivity].
    pose proof (cf_trace_free c F k (sindex_some_in _ _ _ _ E)). congruence.
  - destruct (smem k (parent_names c)) eqn:E; [|reflexivity].
    pose proof (cf_parent_free c F k (proj1 (smem_In _ _) E)). congruence.
Qed.

Lemma not_id_key c k :
  cfg_facts c -> slookup k (metas c) <> Some MString ->
  String.eqb k (k_trace_id c) = false /\ String.eqb k (k_signal c) = false.
Proof.
  intros F H. split; apply (slookup_neq _ _ (metas c)).
  - rewrite (cf_tid c F). exact H.
  - rewrite (cf_sig c F). exact H.
Qed.

Lemma nodup_keys_NoDup (fs : list field) : nodup_keys fs = true <-> NoDup (map fst fs).
Proof.
  induction fs as [|[k v] r IH]; cbn [nodup_keys map fst]; [split; [constructor|reflexivity]|].
  rewrite andb_true_iff, IH, negb_true_iff.
  assert (Hk : existsb (fun f : field => String.eqb (fst f) k) r = false <-> ~ In k (map fst r)).
  { rewrite <- not_true_iff_false, existsb_exists, in_map_iff. split; intros H (f & A & B); apply H; exists f.
    - subst k. split; [exact B|apply String.eqb_refl].
    - apply String.eqb_eq in B. split; [exact B|exact A]. }
  rewrite Hk. split; [intros [Hn Hr]; constructor; assumption|].
  intros Hnd. inversion Hnd. split; assumption.
Qed.

Lemma ev_ok_iff c fs :
  ev_ok c fs = true <->
  NoDup (map fst fs) /\ slookup (k_root c) fs = None /\
  forall f, In f fs -> match slookup (fst f) (metas c), snd f with
                       | Some MString, VBin _ => false
                       | _, _ => true end = true.
Proof.
  unfold ev_ok. rewrite !andb_true_iff, nodup_keys_NoDup, forallb_forall, absent_test. tauto.
Qed.

Record field_facts (c : idcfg) (pre : list field) (k : string) (v : val) : Prop := {
  ff_fresh : slookup k pre = None;
  ff_not_root : String.eqb k (k_root c) = false;
  ff_no_bin : match slookup k (metas c), v with Some MString, VBin _ => false | _, _ => true end = true
}.

Lemma field_facts_of c pre k v suf :
  ev_ok c (pre ++ (k, v) :: suf) = true -> field_facts c pre k v.
Proof.
  intros H. apply ev_ok_iff in H. destruct H as (Hnd & Hroot & Hbin).
  assert (Hin : In (k, v) (pre ++ (k, v) :: suf)) by (apply in_or_app; right; left; reflexivity).
  constructor.
  - apply slookup_None. rewrite map_app in Hnd. apply NoDup_remove_2 in Hnd.
    intros Hp. apply Hnd, in_or_app. left. exact Hp.
  - apply (slookup_neq _ _ (pre ++ (k, v) :: suf)).
    rewrite Hroot, (slookup_in_nodup _ k v Hnd Hin). discriminate.
  - exact (Hbin (k, v) Hin).
Qed.

(* The msgpack scan stops looking at configured trace-ID fields once meta.trace_id is set, so
   fieldTraceID is only known to be the best one while meta.trace_id is empty; that is also all the
   outcome needs of it. *)
Record inv (c : idcfg) (pre : list field) (s : st) : Prop := {
  inv_err : s_err s = false;
  inv_tid : s_tid s = str_at (k_trace_id c) pre;
  inv_sig : s_sig s = str_at (k_signal c) pre;
  inv_root : s_root s = Some (forallb (fun n => is_empty (str_at n pre)) (parent_names c));
  inv_best : is_empty (s_tid s) = true -> (s_ftid s, s_fidx s) = best_from 0 (trace_names c) pre
}.

Lemma inv_init c : inv c [] (init c).
Proof.
  constructor; try reflexivity.
  - cbn [init s_root]. f_equal. symmetry. apply forallb_forall. intros n _. reflexivity.
  - intros _. rewrite best_from_nil. reflexivity.
Qed.

Lemma outcome_of_spec c fs s : inv c fs s -> outcome_of c s = spec_outcome c fs.
Proof.
  intros [He Ht Hs Hr Hb]. unfold outcome_of, spec_outcome. rewrite He.
  assert (Htid : final_tid s = spec_tid c fs).
  { unfold final_tid, spec_tid. rewrite <- Ht.
    destruct (is_empty (s_tid s)) eqn:E; [|reflexivity].
    rewrite <- (best_from_first 0), <- (Hb eq_refl). reflexivity. }
  rewrite Htid. destruct (is_empty (spec_tid c fs)) eqn:E; [reflexivity|].
  f_equal. unfold final_root, spec_root. rewrite E, Hr, Hs.
  destruct (String.eqb (str_at (k_signal c) fs) (log_value c)), (forallb _ (parent_names c)); reflexivity.
Qed.

Definition upd (c : idcfg) (k x : string) (s : st) : st :=
  let best' := match sindex k (trace_names c) with
               | Some idx => if negb (is_empty x) && (idx <? s_fidx s)%nat then (x, idx) else (s_ftid s, s_fidx s)
               | None => (s_ftid s, s_fidx s)
               end in
  {| s_tid := if String.eqb k (k_trace_id c) then x else s_tid s;
     s_sig := if String.eqb k (k_signal c) then x else s_sig s;
     s_root := if smem k (parent_names c) && negb (is_empty x) then Some false else s_root s;
     s_ftid := fst best'; s_fidx := snd best'; s_err := s_err s |}.

Lemma inv_upd c pre s k v :
  inv c pre s -> slookup k pre = None -> inv c (pre ++ [(k, v)]) (upd c k (sval v) s).
Proof.
  intros [He Ht Hs Hr Hb] Hk. constructor; cbn [upd s_err s_tid s_sig s_root s_ftid s_fidx].
  - exact He.
  - rewrite Ht. symmetry. exact (str_at_snoc _ pre k v Hk).
  - rewrite Hs. symmetry. exact (str_at_snoc _ pre k v Hk).
  - rewrite Hr, (all_empty_snoc _ pre k v Hk).
    destruct (smem k (parent_names c) && negb (is_empty (sval v))); reflexivity.
  - intros E.
    (* meta.trace_id was empty before as well: if this field sets it, it was absent *)
    assert (E0 : is_empty (s_tid s) = true).
    { destruct (String.eqb k (k_trace_id c)) eqn:Ek; [|exact E].
      apply String.eqb_eq in Ek. subst k. rewrite Ht, (str_at_fresh _ pre Hk). reflexivity. }
    rewrite <- surjective_pairing. unfold sindex. rewrite (best_from_snoc _ 0 pre k v Hk), <- (Hb E0). reflexivity.
Qed.

Lemma inv_snoc_empty c pre s k v :
  inv c pre s -> slookup k pre = None -> sval v = "" -> inv c (pre ++ [(k, v)]) s.
Proof.
  intros [He Ht Hs Hr Hb] Hk Hv.
  assert (Hsame : forall n, str_at n (pre ++ [(k, v)]) = str_at n pre).
  { intros n. rewrite (str_at_snoc n pre k v Hk), Hv. destruct (String.eqb k n) eqn:E; [|reflexivity].
    apply String.eqb_eq in E. subst n. symmetry. exact (str_at_fresh k pre Hk). }
  constructor.
  - exact He.
  - rewrite Hsame. exact Ht.
  - rewrite Hsame. exact Hs.
  - rewrite Hr, (all_empty_snoc _ pre k v Hk), Hv, andb_false_r. reflexivity.
  - intros E. rewrite (Hb E), (best_from_snoc _ 0 pre k v Hk), Hv.
    destruct (sindex_from 0 k (trace_names c)); reflexivity.
Qed.

Lemma parent_arm_sval c k v s :
  parent_arm c k v s =
  if smem k (parent_names c) && negb (is_empty (sval v)) then set_root (Some false) s else s.
Proof.
  unfold parent_arm. destruct (smem k (parent_names c)); [|reflexivity].
  destruct v as [x| | | | | |]; try reflexivity. cbn [sval andb]. destruct (is_empty x); reflexivity.
Qed.

(* The map scan makes this update at every field, except that under a reserved string name or a
   configured trace-ID name it passes over a value that is no string, which [sval] reads as the empty
   string (the second disjunct).  [destruct s] lets the two states be compared field by field. *)
Lemma step_map_upd c s k v :
  cfg_facts c -> String.eqb k (k_root c) = false ->
  step_map c s (k, v) = upd c k (sval v) s \/ sval v = "" /\ step_map c s (k, v) = s.
Proof.
  intros F Hnr. unfold step_map, upd.
  destruct (slookup k (metas c)) as [m|] eqn:Hm.
  - destruct (reserved_not_configured c k m F Hm) as [Hns Hnp]. rewrite Hns, Hnp.
    destruct m.
    + destruct v as [x| | | | | |]; try (right; split; reflexivity).
      left. cbn [sval]. unfold set_meta_string. destruct (String.eqb k (k_trace_id c)) eqn:E.
      * apply String.eqb_eq in E. subst k. rewrite (cf_tid_sig c F). destruct s; reflexivity.
      * destruct (String.eqb k (k_signal c)), s; reflexivity.
    + left. destruct (not_id_key c k F) as [N1 N2]; [congruence|]. rewrite N1, N2.
      unfold set_meta_bool. rewrite Hnr. destruct v, s; reflexivity.
    + left. destruct (not_id_key c k F) as [N1 N2]; [congruence|]. rewrite N1, N2.
      destruct s; reflexivity.
  - destruct (not_id_key c k F) as [N1 N2]; [congruence|]. rewrite N1, N2.
    destruct (sindex k (trace_names c)) as [idx|] eqn:Hi.
    + rewrite (cf_disjoint c F k (sindex_some_in _ _ _ _ Hi)).
      destruct v as [x| | | | | |]; try (right; split; reflexivity).
      left. cbn [sval]. destruct (negb (is_empty x) && (idx <? s_fidx s)%nat), s; reflexivity.
    + left. rewrite parent_arm_sval.
      destruct (smem k (parent_names c) && negb (is_empty (sval v))), s; reflexivity.
Qed.

Lemma step_map_inv c : cfg_facts c -> forall pre s k v,
  inv c pre s -> field_facts c pre k v -> inv c (pre ++ [(k, v)]) (step_map c s (k, v)).
Proof.
  intros F pre s k v I [Hk Hnr _]. destruct (step_map_upd c s k v F Hnr) as [->|[Hv ->]].
  - exact (inv_upd c pre s k v I Hk).
  - exact (inv_snoc_empty c pre s k v I Hk Hv).
Qed.

Lemma if_same {A} (b : bool) (a : A) : (if b then a else a) = a.
Proof. destruct b; reflexivity. Qed.

Lemma step_bytes_map c pre s k v :
  cfg_facts c -> field_facts c pre k v ->
  step_bytes c s (k, v) = step_map c s (k, v) \/
  is_empty (s_tid s) = false /\ step_bytes c s (k, v) = s /\
  exists x idx, step_map c s (k, v) = set_ftid x idx s.
Proof.
  intros F [_ _ Hnb]. unfold step_bytes, step_map.
  destruct (slookup k (metas c)) as [m|] eqn:Hm.
  - (* a reserved name is no configured name, so both ignore a value of the wrong type *)
    left. destruct (reserved_not_configured c k m F Hm) as [Hns Hnp].
    rewrite (cf_prefix c F k m Hm), Hns. unfold parent_arm. rewrite Hnp.
    destruct m, v; try discriminate Hnb; reflexivity.
  - (* [meta] is None whether or not k starts with "meta." *)
    cbv iota. rewrite if_same.
    destruct (sindex k (trace_names c)) as [idx|] eqn:Hi.
    + destruct v as [x| | | | | |]; try (left; reflexivity).
      replace (parent_arm c k (VStr x) s) with s
        by (unfold parent_arm; rewrite (cf_disjoint c F k (sindex_some_in _ _ _ _ Hi)); reflexivity).
      destruct (is_empty (s_tid s)); cbn [andb].
      * left. destruct (is_empty x), (idx <? s_fidx s)%nat; reflexivity.
      * destruct (negb (is_empty x) && (idx <? s_fidx s)%nat); [right; eauto|left; reflexivity].
    + left. destruct v; try reflexivity; unfold parent_arm; destruct (smem k (parent_names c)); reflexivity.
Qed.

Lemma step_bytes_inv c : cfg_facts c -> forall pre s k v,
  inv c pre s -> field_facts c pre k v -> inv c (pre ++ [(k, v)]) (step_bytes c s (k, v)).
Proof.
  intros F pre s k v I Hf. pose proof (step_map_inv c F pre s k v I Hf) as I'.
  destruct (step_bytes_map c pre s k v F Hf) as [->|(Et & -> & x & idx & E)]; [exact I'|].
  (* [set_ftid] writes only what the invariant is silent about once meta.trace_id is set *)
  rewrite E in I'. destruct I' as [He Ht Hs Hr _].
  constructor; try assumption. intros E'. rewrite E' in Et. discriminate.
Qed.

Lemma scan_inv c (step : st -> field -> st) :
  (forall pre s k v, inv c pre s -> field_facts c pre k v -> inv c (pre ++ [(k, v)]) (step s (k, v))) ->
  forall suf pre s,
  inv c pre s -> ev_ok c (pre ++ suf) = true -> inv c (pre ++ suf) (fold_left step suf s).
Proof.
  intros Hstep. induction suf as [|[k v] r IH]; intros pre s I E.
  - rewrite app_nil_r. exact I.
  - cbn [fold_left]. change (pre ++ (k, v) :: r) with (pre ++ [(k, v)] ++ r) in *.
    rewrite app_assoc in *. apply IH; [|exact E].
    apply Hstep; [exact I|]. rewrite <- app_assoc in E. exact (field_facts_of c pre k v r E).
Qed.

Theorem scan_spec c (step : st -> field -> st) fs :
  (forall pre s k v, inv c pre s -> field_facts c pre k v -> inv c (pre ++ [(k, v)]) (step s (k, v))) ->
  ev_ok c fs = true -> outcome_of c (fold_left step fs (init c)) = spec_outcome c fs.
Proof.
  intros Hstep E. apply outcome_of_spec. exact (scan_inv c step Hstep fs [] (init c) (inv_init c) E).
Qed.

Theorem bytes_path_spec : forall c fs,
  cfg_ok c = true -> table_ok c = true -> ev_ok c fs = true ->
  outcome_bytes c fs = spec_outcome c fs.
Proof.
  intros c fs Hc Ht. apply scan_spec. exact (step_bytes_inv c (cfg_facts_of c Hc Ht)).
Qed.

Theorem map_path_spec : forall c fs,
  cfg_ok c = true -> table_ok c = true -> ev_ok c fs = true ->
  outcome_map c fs = spec_outcome c fs.
Proof.
  intros c fs Hc Ht. apply scan_spec. exact (step_map_inv c (cfg_facts_of c Hc Ht)).
Qed.

Definition relevant (c : idcfg) (n : string) : Prop :=
  n = k_trace_id c \/ n = k_signal c \/ In n (trace_names c) \/ In n (parent_names c).

(* the test that [no_bin_ids] makes on a name decides [relevant] *)
Lemma relevant_iff c n :
  smem n (trace_names c) || smem n (parent_names c) || String.eqb n (k_trace_id c) || String.eqb n (k_signal c) = true
  <-> relevant c n.
Proof. unfold relevant. rewrite !orb_true_iff, !smem_In, !String.eqb_eq. tauto. Qed.

Lemma spec_ext c fs fs' :
  (forall n, relevant c n -> str_at n fs = str_at n fs') -> spec_outcome c fs = spec_outcome c fs'.
Proof.
  intros H.
  assert (Ht : spec_tid c fs = spec_tid c fs').
  { unfold spec_tid. rewrite (H (k_trace_id c)) by (left; reflexivity).
    rewrite (map_ext_in _ (fun n => str_at n fs') (trace_names c)); [reflexivity|].
    intros n Hn. apply H. right. right. left. exact Hn. }
  unfold spec_outcome, spec_root. rewrite Ht, (H (k_signal c)) by (right; left; reflexivity).
  rewrite (forallb_ext_in _ (fun n => is_empty (str_at n fs')) (parent_names c)); [reflexivity|].
  intros n Hn. f_equal. apply H. right. right. right. exact Hn.
Qed.

Theorem paths_agree : forall c fs fs',
  cfg_ok c = true -> table_ok c = true -> ev_ok c fs = true -> ev_ok c fs' = true ->
  (forall n, relevant c n -> str_at n fs = str_at n fs') ->
  outcome_bytes c fs = outcome_bytes c fs' /\
  outcome_map c fs = outcome_map c fs' /\
  outcome_bytes c fs = outcome_map c fs'.
Proof.
  intros c fs fs' Hc Ht E E' H.
  rewrite (bytes_path_spec c fs Hc Ht E), (bytes_path_spec c fs' Hc Ht E'),
          (map_path_spec c fs Hc Ht E), (map_path_spec c fs' Hc Ht E').
  rewrite (spec_ext c fs fs' H). repeat split; reflexivity.
Qed.

Lemma ev_ok_perm c (fs fs' : list field) :
  Permutation.Permutation fs fs' -> ev_ok c fs = true -> ev_ok c fs' = true.
Proof.
  rewrite !ev_ok_iff. intros P (Hnd & Hr & Hb). split; [|split].
  - exact (Permutation.Permutation_NoDup (Permutation.Permutation_map fst P) Hnd).
  - rewrite <- (perm_same_lookup fs fs' _ P Hnd). exact Hr.
  - intros f Hin. apply Hb. exact (Permutation.Permutation_in _ (Permutation.Permutation_sym P) Hin).
Qed.

Theorem order_independent : forall c fs fs',
  cfg_ok c = true -> table_ok c = true -> ev_ok c fs = true -> Permutation.Permutation fs fs' ->
  outcome_bytes c fs' = outcome_bytes c fs /\ outcome_map c fs' = outcome_map c fs /\
  outcome_map c fs' = outcome_bytes c fs.
Proof.
  intros c fs fs' Hc Ht E P.
  assert (H : forall n, relevant c n -> str_at n fs = str_at n fs').
  { intros n _. unfold str_at. rewrite (perm_same_lookup fs fs' n P); [reflexivity|].
    apply ev_ok_iff in E. exact (proj1 E). }
  destruct (paths_agree c fs fs' Hc Ht E (ev_ok_perm c fs fs' P E) H) as (A & B & C).
  repeat split; congruence.
Qed.

Lemma slookup_loosen k fs : slookup k (loosen fs) = option_map loosen_val (slookup k fs).
Proof.
  induction fs as [|[k' v] r IH]; cbn [loosen map slookup fst snd option_map]; [reflexivity|].
  destruct (String.eqb k' k); [reflexivity|exact IH].
Qed.

Lemma str_at_loosen c fs n :
  no_bin_ids c fs = true -> relevant c n -> str_at n (loosen fs) = str_at n fs.
Proof.
  intros Hb Hr. unfold str_at. rewrite slookup_loosen.
  destruct (slookup n fs) as [v|] eqn:L; [|reflexivity].
  destruct v as [x|x| | |b| |]; try reflexivity.
  exfalso. unfold no_bin_ids in Hb. rewrite forallb_forall in Hb.
  specialize (Hb (n, VBin x) (slookup_some_in _ _ _ L)). cbn [fst snd] in Hb.
  apply negb_true_iff in Hb. apply relevant_iff in Hr. congruence.
Qed.

Lemma ev_ok_loosen c fs : ev_ok c fs = true -> ev_ok c (loosen fs) = true.
Proof.
  rewrite !ev_ok_iff. intros (Hnd & Hr & _). split; [|split].
  - unfold loosen. rewrite map_map. exact Hnd.
  - rewrite slookup_loosen, Hr. reflexivity.
  - intros f Hin. apply in_map_iff in Hin. destruct Hin as (f' & <- & _). cbn [fst snd].
    destruct (slookup (fst f') (metas c)) as [[]|], (snd f'); reflexivity.
Qed.

Theorem loose_path_partial : forall c fs,
  cfg_ok c = true -> table_ok c = true -> ev_ok c fs = true -> no_bin_ids c fs = true ->
  outcome_loose c fs = spec_outcome c fs.
Proof.
  intros c fs Hc Ht E Hb. unfold outcome_loose.
  rewrite (map_path_spec c (loosen fs) Hc Ht (ev_ok_loosen c fs E)).
  apply spec_ext. intros n. exact (str_at_loosen c fs n Hb).
Qed.

