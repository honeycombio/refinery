(* C02 — kept spans are forwarded exactly once, dropped spans never, none lost.
   Statements; proofs in Proofs/CollectorRef.v and CollectorSys.v (one worker, the product of workers),
   CollectorTime.v and CollectorLive.v (ticks): each theorem is closed by a lemma from there, or by a
   few lines that use them. *)
From Refinery Require Import Lib.Base Model.Collector Proofs.CollectorAbs Proofs.CollectorRef Proofs.CollectorTime Proofs.CollectorLive Proofs.CollectorSys Gen.GenC01.

(* Exactly once / nothing invented.  For every sampler, dry-run setting, config and EVERY history of
   span arrivals, ticks, ejections, reloads and forgotten decisions (forgetting included: no premise
   on retention here) in which (trace, span id) pairs are unique: the sequence of spans handed to
   the transmission has no duplicates, and every forwarded span was accepted for that trace. *)
Theorem C02_exactly_once_nothing_invented :
  forall (sampler : N -> list span -> bool) (dry : bool) (c : cfg) (ops : list op),
  NoDup (span_keys ops) ->
  NoDup (map proj (concat (snd (run sampler dry (winit c) ops)))) /\
  (forall t s, forwarded (snd (run sampler dry (winit c) ops)) t s -> accepted_by ops t s).
Proof. intros. split; [apply worker_out_nodup; assumption|apply worker_nothing_invented]. Qed.
Print Assumptions C02_exactly_once_nothing_invented.

(* Kept: every accepted span forwarded; dropped or undecided: none (a forwarded span implies a
   recorded keep decision, or dry run).  Never-forgotten traces. *)
Theorem C02_kept_all_dropped_none :
  forall (sampler : N -> list span -> bool) (dry : bool) (c : cfg) (ops : list op) (t : N),
  ~ In (OForget t) ops ->
  match alookup t (w_dec (fst (run sampler dry (winit c) ops))) with
  | Some k => if k || dry then (forall s, accepted_by ops t s <-> forwarded (snd (run sampler dry (winit c) ops)) t s)
              else (forall s, ~ forwarded (snd (run sampler dry (winit c) ops)) t s)
  | None => forall s, ~ forwarded (snd (run sampler dry (winit c) ops)) t s
  end.
Proof. exact worker_all_or_none. Qed.
Print Assumptions C02_kept_all_dropped_none.

(* No span is lost while running: at every moment an accepted span of a never-forgotten trace is
   still buffered (trace undecided), or its trace is decided, it has left the buffer, and it has
   been forwarded iff the decision is keep (or dry run). *)
Theorem C02_no_span_lost :
  forall (sampler : N -> list span -> bool) (dry : bool) (c : cfg) (ops : list op) (t s : N),
  ~ In (OForget t) ops -> accepted_by ops t s ->
  match alookup t (w_dec (fst (run sampler dry (winit c) ops))) with
  | None => exists tr, alookup t (w_buf (fst (run sampler dry (winit c) ops))) = Some tr /\ In s (sids tr)
  | Some k => alookup t (w_buf (fst (run sampler dry (winit c) ops))) = None /\
              (forwarded (snd (run sampler dry (winit c) ops)) t s <-> k || dry = true)
  end.
Proof. exact worker_no_span_lost. Qed.
Print Assumptions C02_no_span_lost.

(* The same in the product of workers (any worker count, any routing function). *)
Theorem C02_system_kept_all_dropped_none :
  forall (sampler : N -> list span -> bool) (dry : bool) (n : nat) (c : cfg) (wk : N -> nat) (ops : list sop) (t : N),
  routed wk ops -> (wk t < n)%nat -> ~ sys_forgot ops t ->
  let ws := fst (sys_run sampler dry (repeat (winit c) n) ops) in
  let es := snd (sys_run sampler dry (repeat (winit c) n) ops) in
  exists w, nth_error ws (wk t) = Some w /\
  match alookup t (w_dec w) with
  | Some k => if k || dry then (forall s, sys_accepted ops t s <-> forwarded es t s) else (forall s, ~ forwarded es t s)
  | None => forall s, ~ forwarded es t s
  end.
Proof. exact sys_all_or_none. Qed.
Print Assumptions C02_system_kept_all_dropped_none.

(* Exactly once in the product of workers, for ANY worker count and ANY addressing of the ops (no routing
   premise at all): with unique (trace, span id) pairs in the whole history, the sequence of spans handed
   to the transmission by all workers together has no duplicates and contains only accepted spans. *)
Theorem C02_system_exactly_once_nothing_invented :
  forall (sampler : N -> list span -> bool) (dry : bool) (n : nat) (c : cfg) (ops : list sop),
  NoDup (sys_span_keys ops) ->
  NoDup (map proj (concat (snd (sys_run sampler dry (repeat (winit c) n) ops)))) /\
  (forall t s, forwarded (snd (sys_run sampler dry (repeat (winit c) n) ops)) t s -> sys_accepted ops t s).
Proof. intros. split; [apply sys_out_nodup; assumption|apply sys_nothing_invented]. Qed.
Print Assumptions C02_system_exactly_once_nothing_invented.

(* Eventually decided.  One tick after every deadline removes min(MaxExpiredTraces', |buffer|)
   traces, so k ticks the code can perform (for any tie-breaking of the queue) at instants at or
   after every buffered deadline empty a reachable buffer of at most k * MaxExpiredTraces traces
   (one tick suffices when MaxExpiredTraces = 0 = unlimited): every buffered trace is decided. *)
Theorem C02_eventually_decided :
  forall (sampler : N -> list span -> bool) (dry : bool) (ticks : list (Z * list N)) (w : wstate),
  NoDup (akeys (w_buf w)) ->
  (forall nc, In nc ticks -> forall kv, In kv (w_buf w) -> t_sendby (snd kv) <= fst nc) ->
  (forall nc w0, In nc ticks -> step sampler dry w0 (OTick (fst nc) (snd nc)) <> None) ->
  (c_me (w_cfg w) <= 0 -> ticks <> []) ->
  (0 < c_me (w_cfg w) -> Z.of_nat (length (w_buf w)) <= Z.of_nat (length ticks) * c_me (w_cfg w)) ->
  w_buf (fst (run sampler dry w (map (fun nc => OTick (fst nc) (snd nc)) ticks))) = [].
Proof.
  intros sampler dry ticks w Hnd Hlate Hvalid. apply late_ticks_drain; [exact Hnd|exact Hlate|].
  apply all_valid_always. intros o w0 Ho. apply in_map_iff in Ho. destruct Ho as [nc [<- Hin]]. exact (Hvalid nc w0 Hin).
Qed.
Print Assumptions C02_eventually_decided.

(* ... and with arbitrary other traffic in between, a due trace is decided by the very next tick
   unless MaxExpiredTraces earlier-or-equal deadlines are ahead of it (earliest deadline first). *)
Theorem C02_due_trace_decided :
  forall (sampler : N -> list span -> bool) (dry : bool) (w : wstate) (now : Z) (ch : list N) (w' : wstate)
         (evs : list ev) (t : N) (tr : trace),
  NoDup (akeys (w_buf w)) ->
  step_tick sampler dry w now ch = Some (w', evs) ->
  alookup t (w_buf w) = Some tr -> t_sendby tr <= now ->
  (c_me (w_cfg w) <= 0 \/
   Z.of_nat (length (filter (fun kv => (t_sendby (snd kv) <=? t_sendby tr) && negb (N.eqb (fst kv) t)) (w_buf w)))
     < c_me (w_cfg w)) ->
  In t ch.
Proof. exact tick_decides_due. Qed.
Print Assumptions C02_due_trace_decided.

(* Eventually decided, under arbitrary interleaved traffic.  Follow a buffered trace t whose deadline d
   has passed.  Whatever happens next — spans of any trace arriving (after d), ejections, reloads (to
   non-negative timeouts and MaxExpiredTraces = 0 or >= m), forgotten decisions, in any order — as soon
   as the history contains more than ahead/m send ticks (at instants >= d), where ahead counts the other
   buffered traces with deadline <= d, some prefix of it has decided t.  (No later arrival can get
   ahead of t: every deadline written after instant d is later than d.) *)
Theorem C02_eventually_decided_interleaved :
  forall (sampler : N -> list span -> bool) (dry : bool) (t : N) (d m : Z) (ops : list op) (w : wstate),
  0 < m ->
  NoDup (akeys (w_buf w)) -> cfg_nonneg (w_cfg w) -> me_ok m (w_cfg w) -> waiting t d w ->
  Forall (op_after d m) ops -> all_valid sampler dry w ops ->
  Z.of_nat (ahead t d (w_buf w)) < m * n_ticks ops ->
  exists k, alookup t (w_buf (fst (run sampler dry w (firstn k ops)))) = None.
Proof. exact due_trace_decided_interleaved. Qed.
Print Assumptions C02_eventually_decided_interleaved.

Example C02_code_shape :
  md_records_decision && tick_takes_expired_with_max && collect_tick_runs_send_expired_at_now &&
  collect_send_early_branch && take_loop_bound = true.
Proof. vm_compute. reflexivity. Qed.

(* No loss between the decision and the transmission (source facts; see Proofs/CollectorRef.v): every decide
   site sends what it decided, `send` enqueues with a plain blocking channel send and returns early only for
   already-sent or dropped traces, `sendTraces` consumes the queue until it is closed. *)
Theorem C02_decided_traces_cannot_be_discarded_in_source : send_path_lossless = true.
Proof. exact send_path_lossless_holds. Qed.
Print Assumptions C02_decided_traces_cannot_be_discarded_in_source.

(* Non-vacuity: a kept trace with a late span, a dropped trace with a late span, an ejection during
   a backlog, unique span ids; outputs have no duplicates and the buffer drains. *)
Definition ex_sampler (ver : N) (spans : list span) : bool := negb (existsb (fun s => N.eqb (s_cls s) 1) spans).
Definition ex_sp (t i : N) (root : bool) (cls : N) : span :=
  {| s_id := i; s_tid := t; s_root := root; s_cls := cls; s_size := 10; s_age := 0 |}.
Definition ex_cfg : cfg := {| c_ver := 0; c_tt := 100; c_sd := 10; c_sl := 0; c_me := 1 |}.
Definition ex_ops : list op :=
  [ OSpan 0 (ex_sp 1 1 false 0); OSpan 0 (ex_sp 2 2 false 1); OSpan 0 (ex_sp 3 3 false 0);
    OTick 100 [1%N]; OSpan 101 (ex_sp 1 4 false 0); OEject 0 [2%N]; OSpan 102 (ex_sp 2 5 true 0);
    OTick 103 [3%N]; OTick 104 [] ].
Example C02_nonvacuous :
  (exists pf : NoDup (span_keys ex_ops), True) /\
  map proj (concat (snd (run ex_sampler false (winit ex_cfg) ex_ops))) = [(1, 1); (1, 4); (3, 3)]%N /\
  w_buf (fst (run ex_sampler false (winit ex_cfg) ex_ops)) = [].
Proof.
  split; [|vm_compute; split; reflexivity].
  assert (H : NoDup (span_keys ex_ops)); [|exists H; exact I].
  vm_compute. repeat constructor; cbn; intros H; repeat (destruct H as [H|H]; [discriminate|]); exact H.
Qed.
