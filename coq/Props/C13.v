(* C13 — throughput goals scale with the current cluster size.
   Statements; C13_source_shape is checked by conversion on Gen/GenC12.v and Gen/GenC13.v, the
   others are closed by [exact] with a theorem of Proofs/Registry.v.
   [frun finit ops] is the factory after any history of sampler creations (top-level or downstream,
   any worker), ClearDynsamplers (reload) and membership changes with or without a notification.
   k_ucs / k_goal are the UseClusterSize flag and GoalThroughputPerSec of the definition an
   instance was created from (the registry key holds the whole configuration); k_init is the goal
   a fresh instance of it starts with (the configured goal, 100 if that is 0). *)
From Refinery Require Import Lib.Base Lib.Strs_samp Model.Registry Proofs.Registry.
From Refinery Require Gen.GenC12 Gen.GenC13.

Theorem C13_source_shape :
  GenC13.peer_count_only_on_success = true /\ GenC13.peers_read_under_lock = true /\
  GenC13.goal_is_max_quot_1 = true /\
  GenC13.peer_count_starts_at_1 = true /\ GenC13.callback_registered = true /\
  length GenC13.goal_recorded_when_use_cluster_size = 3%nat /\
  GenC13.create_updates_peer_counts = true /\
  GenC12.key_format_whole = true.
Proof.
  (* by conversion on Gen/GenC12.v and Gen/GenC13.v: if the source changes so that one of these values is extracted
     differently, [reflexivity] fails here *)
  repeat split; reflexivity.
Qed.
Print Assumptions C13_source_shape.

(* Every history, every live throughput instance: created from a UseClusterSize definition its goal
   is max(1, floor(configured goal / peer count)); otherwise it is the configured goal (dynsampler-go
   reads a configured 0 as 100).  The peer count is at least 1. *)
Theorem C13_goals_in_force : forall ops k i,
  let s := frun finit ops in
  kfind k (f_reg s) = Some i -> is_throughput (k_type k) = true ->
  1 <= f_peers s /\
  i_goal i = if k_ucs k then Z.max 1 (k_goal k / f_peers s) else k_init k.
Proof. exact goals_in_force. Qed.
Print Assumptions C13_goals_in_force.

(* the peer count is the current number of peers once the factory has been notified … *)
Theorem C13_peers_current_after_notification : forall ops n,
  0 < n -> f_peers (frun finit (ops ++ [FPeers (Some n) true])) = n.
Proof. exact peers_current_after_notification. Qed.
Print Assumptions C13_peers_current_after_notification.

(* … and after any sampler creation (lazy creation on any worker re-reads the peer list) *)
Theorem C13_peers_current_after_creation : forall s sc name d n,
  f_src s = Some n -> 0 < n -> f_peers (fst (create s sc name d)) = n.
Proof. exact peers_current_after_creation. Qed.
Print Assumptions C13_peers_current_after_creation.

(* a membership change delivered while a sampler is being created (the creation reads the peer list
   under the factory lock, the notification waits for it) is not lost *)
Theorem C13_peers_current_after_racing_creation : forall s sc name d n,
  0 < n -> f_peers (fst (fstep s (FCreateRace sc name d (Some n)))) = n.
Proof. exact peers_current_after_racing_creation. Qed.
Print Assumptions C13_peers_current_after_racing_creation.

(* a failed or empty peer list never changes the count *)
Theorem C13_peers_unchanged_on_failure : forall s,
  (f_src s = None \/ exists n, f_src s = Some n /\ n <= 0) ->
  f_peers (update_peer_counts s) = f_peers s.
Proof. exact peers_unchanged_on_failure. Qed.
Print Assumptions C13_peers_unchanged_on_failure.

(* Go's max(cfg/peerCount, 1) with truncating division is max(1, floor(cfg/peerCount)) *)
Theorem C13_truncating_division_is_floor : forall c p, 1 <= p -> node_goal c p = Z.max 1 (c / p).
Proof. exact node_goal_floor. Qed.
Print Assumptions C13_truncating_division_is_floor.

(* Non-vacuity: creation after a change, reload between changes, a mixture of UseClusterSize and
   plain definitions that differ in nothing else *)
Example C13_nonvacuous :
  let ucs := {| dd_type := 7; dd_params := [100; 1; 0; 0; 0]; dd_fields := [u "a"] |} in
  let plain := {| dd_type := 7; dd_params := [100; 0; 0; 0; 0]; dd_fields := [u "a"] |} in
  let ema := {| dd_type := 5; dd_params := [7; 1; 0; 0; 0; 0; 0; 0; 0; 0]; dd_fields := [] |} in
  let s := frun finit [FPeers (Some 3) true; FCreate Top (u "prod") ucs; FCreate Top (u "prod") plain;
                       FPeers (Some 8) false; FCreate Down (u "prod") ema; FPeers None true;
                       FPeers (Some 0) true] in
  live_goals s = [(2%N, 1); (1%N, 100); (0%N, 12)] /\ f_peers s = 8 /\
  live_goals (frun s [FClear; FPeers (Some 2) true; FCreate Top (u "prod") ucs]) = [(3%N, 50)].
Proof. vm_compute. repeat split; reflexivity. Qed.
