(* C19 — every received event takes exactly one route.
   Statements; proofs in Proofs/Route.v (on top of Proofs/Payload.v). Each theorem is closed by a lemma
   from there; the fact about the text of route.go is checked by evaluation.

   Vocabulary (Model/Route.v on top of Model/Payload.v):
     process widen nd pa c ua e fs   what Router.processEvent does with the event (fields fs, envelope e =
                                     API host/key, dataset, sample rate, timestamp) received on path pa by a
                                     node in state nd: Rejected (not well-formed), Refused (collector queue
                                     full, error returned) or Done l, l = the sink calls in order
     nd                              listener (incoming / peer), Collector.Stressed(), the answer of
                                     ProcessSpanImmediately, queue full, and the sharder as an arbitrary
                                     function n_owner : trace id -> None (this node) | Some address
     table / facts_of / realises     the decision table of the property and what each row means in sink calls
     handlings l                     number of sink calls in l that hand over the event itself (only a call on the
                                     peer transmission whose payload carries meta.refinery.probe = true is a marker)
     source_shape_ok                 (Proofs/Route.v) the order of the decisions, the event field written and the sink
                                     calls of processEvent, as the translator found them in route.go (Gen/GenC19.v)
     path_spec                       (Proofs/Payload.v) see Props/C20.v *)
From Refinery Require Import Lib.Base Lib.SMap_route2 Model.Payload Proofs.Payload Model.Route Proofs.Route.

(* Totality and exclusivity: for every node state, envelope and extracted payload the model of
   processEvent does exactly what the (total, first-match) decision table says. *)
Theorem C19_route_realises_decision_table : forall nd e p,
  realises nd e p (table (facts_of nd p)) (route nd e p).
Proof. exact route_realises_table. Qed.
Print Assumptions C19_route_realises_decision_table.

(* Exactly once: a non-probe event is handed over exactly once (or refused with an error when this
   node owns the trace and its collector queue is full); a probe reaches no sink; never Rejected
   once extraction succeeded. Holds on both listeners, for any ownership and stress state. *)
Theorem C19_handled_exactly_once : forall nd e p,
  match route nd e p with
  | Done l => if is_probe p then l = [] else handlings l = 1%nat
  | Refused => is_probe p = false /\ n_full nd = true /\ n_owner nd (meta_str GenC20.meta_trace_id p) = None
  | Rejected => False
  end.
Proof. exact route_exactly_once. Qed.
Print Assumptions C19_handled_exactly_once.

Theorem C19_untraced_goes_upstream_only : forall nd e p,
  is_probe p = false -> meta_str GenC20.meta_trace_id p = EmptyString ->
  route nd e p = Done [emit SUpstream e p].
Proof. exact untraced_goes_upstream_only. Qed.
Print Assumptions C19_untraced_goes_upstream_only.

Theorem C19_probes_reach_no_sink : forall nd e p, is_probe p = true -> route nd e p = Done [].
Proof. exact probes_reach_no_sink. Qed.
Print Assumptions C19_probes_reach_no_sink.

Theorem C19_owned_goes_to_collector : forall nd e p,
  is_probe p = false -> meta_str GenC20.meta_trace_id p <> EmptyString ->
  n_stressed nd && n_processed nd = false -> n_owner nd (meta_str GenC20.meta_trace_id p) = None -> n_full nd = false ->
  route nd e p = Done [emit (if n_incoming nd then SCollector else SCollectorPeer) e p].
Proof. exact owned_goes_to_collector. Qed.
Print Assumptions C19_owned_goes_to_collector.

(* End to end, from the client's fields: whatever is forwarded to the owner has the request's API key,
   dataset, sample rate and timestamp, no duplicated key, every non-reserved client field with its
   value and type (C20's statement), and nothing but reserved names besides. *)
Theorem C19_peer_forward_unchanged : forall (widen : N -> N) nd pa c ua e fs m,
  NoDup (skeys fs) ->
  process widen nd pa c ua e fs = Done [m] -> m_sink m = SPeer ->
  v_apikey (m_env m) = v_apikey e /\ v_dataset (m_env m) = v_dataset e /\
  v_rate (m_env m) = v_rate e /\ v_sec (m_env m) = v_sec e /\ v_nsec (m_env m) = v_nsec e /\
  NoDup (skeys (m_data m)) /\
  (forall k, reserved k = false ->
      option_map (canon widen) (slookup k (m_data m)) =
      option_map (fun v => canon widen (path_spec pa v)) (slookup k fs)) /\
  (forall k, In k (skeys (m_data m)) -> reserved k = true \/ In k (skeys fs)).
Proof. exact peer_forward_keeps_fields. Qed.
Print Assumptions C19_peer_forward_unchanged.

(* The probe marker a stressed node sends to the owner of a kept trace is discarded by whatever node
   receives it (two-hop statement: marshal at the sender, extraction at the receiver). *)
Theorem C19_probe_marker_discarded_by_receiver : forall (widen : N -> N) p nd' c' ua' e',
  NoDup (skeys (p_raw p)) -> NoDup (skeys (p_memo p)) ->
  match process widen nd' PBatchMsgp c' ua' e' (marshal (set_probe p)) with
  | Done l => l = []
  | Rejected => True
  | Refused => False
  end.
Proof. exact probe_marker_is_discarded. Qed.
Print Assumptions C19_probe_marker_discarded_by_receiver.

(* The shape of processEvent these statements model (order of the decisions, the only event field
   it writes, the sink calls it contains) is re-read from route.go on every run. *)
Theorem C19_source_shape : source_shape_ok = true.
Proof. vm_compute. reflexivity. Qed.
Print Assumptions C19_source_shape.

(* Non-vacuity: a stressed incoming node that keeps a span owned by another node: the stress path
   handles it and a probe marker goes to the owner; the same span on an unstressed node is forwarded
   to the owner with only APIHost changed. *)
Example C19_nonvacuous :
  let fs := [("trace.trace_id", VStr "t-remote"); ("name", VStr "GET /"); ("n", VUint 7)]%string in
  let c := {| trace_names := ["trace.trace_id"]; parent_names := []; key_fields := [] |}%string in
  let e := {| v_apihost := "hny"; v_apikey := "k"; v_dataset := "ds"; v_rate := 2; v_sec := 10; v_nsec := 5 |}%string in
  let own := fun t : string => if String.eqb t "t-remote" then Some "peer-1"%string else None in
  let calm := {| n_incoming := true; n_stressed := false; n_processed := false; n_kept := false; n_full := false; n_owner := own |} in
  let hot := {| n_incoming := true; n_stressed := true; n_processed := true; n_kept := true; n_full := false; n_owner := own |} in
  NoDup (skeys fs) /\
  (exists d, process (fun b => b) calm PBatchMsgp c EmptyString e fs =
     Done [{| m_sink := SPeer; m_env := with_host e "peer-1"; m_data := d; m_trace := "t-remote"; m_root := true |}]
     /\ slookup "name"%string d = Some (VStr "GET /") /\ is_probe_data d = false) /\
  (exists d d', process (fun b => b) hot PBatchMsgp c EmptyString e fs =
     Done [{| m_sink := SStress; m_env := e; m_data := d; m_trace := "t-remote"; m_root := true |};
           {| m_sink := SPeer; m_env := with_host e "peer-1"; m_data := d'; m_trace := "t-remote"; m_root := true |}]
     /\ is_probe_data d = false /\ is_probe_data d' = true).
Proof.
  split; [repeat constructor; cbn [In skeys map fst]; intros H; repeat (destruct H as [H|H]; [discriminate H|]); exact H|].
  split.
  - eexists. split; [vm_compute; reflexivity|]. split; vm_compute; reflexivity.
  - eexists. eexists. split; [vm_compute; reflexivity|]. split; vm_compute; reflexivity.
Qed.
