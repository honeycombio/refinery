(* C01 — one keep/drop decision per trace, applied to every span.
   Statements; proofs in Proofs/CollectorAbs.v (abstract machine invariants) and Proofs/CollectorRef.v
   (the worker model refines the abstract machine; product of workers): each theorem is closed by a lemma
   from there or by a few lines reading an invariant off the abstract run of [worker_abs]. *)
From Refinery Require Import Lib.Base Model.Collector Proofs.CollectorAbs Proofs.CollectorRef Gen.GenC01.

(* The system: n >= 1 workers, every span of trace t routed to worker [wk t] (any function — the
   wyhash of the code is one), any sampler (a function of the config version in force and of the
   buffered spans: every sampler type, configuration and reload), dry run on or off, and ANY history
   of span arrivals, send ticks, ejections, reloads and forgotten decisions, in any interleaving
   across workers.  For every trace whose decision was never forgotten (the property's retention
   premise) there is ONE remembered decision d; if d is keep (or dry run is on) the spans forwarded
   for the trace are exactly its accepted spans — including those that arrived after the decision —
   and otherwise (dropped, or not yet decided) none of its spans has been forwarded. *)
Theorem C01_single_decision :
  forall (sampler : N -> list span -> bool) (dry : bool) (n : nat) (c : cfg) (wk : N -> nat)
         (ops : list sop) (t : N),
  routed wk ops -> (wk t < n)%nat -> ~ sys_forgot ops t ->
  let ws := fst (sys_run sampler dry (repeat (winit c) n) ops) in
  let es := snd (sys_run sampler dry (repeat (winit c) n) ops) in
  exists w, nth_error ws (wk t) = Some w /\
  match alookup t (w_dec w) with
  | Some k => if k || dry then (forall s, sys_accepted ops t s <-> forwarded es t s)
              else (forall s, ~ forwarded es t s)
  | None => forall s, ~ forwarded es t s
  end.
Proof. exact sys_all_or_none. Qed.
Print Assumptions C01_single_decision.

(* Worker count is irrelevant: worker i of the product behaves exactly like a single worker that is
   given the ops addressed to i (state and emitted events). *)
Theorem C01_worker_count_irrelevant :
  forall (sampler : N -> list span -> bool) (dry : bool) (ops : list sop) (ws : list wstate) (i : nat) (w : wstate),
  nth_error ws i = Some w ->
  nth_error (fst (sys_run sampler dry ws ops)) i = Some (fst (run sampler dry w (pops i ops))) /\
  evs_at i ops (snd (sys_run sampler dry ws ops)) = snd (run sampler dry w (pops i ops)).
Proof. exact sys_run_proj. Qed.
Print Assumptions C01_worker_count_irrelevant.

(* Once made, a decision that is not forgotten never changes, whatever happens next. *)
Theorem C01_decision_final :
  forall (sampler : N -> list span -> bool) (dry : bool) (c : cfg) (ops1 ops2 : list op) (t : N) (k : bool),
  alookup t (w_dec (fst (run sampler dry (winit c) ops1))) = Some k -> ~ In (OForget t) ops2 ->
  alookup t (w_dec (fst (run sampler dry (winit c) (ops1 ++ ops2)))) = Some k.
Proof.
  intros sampler dry c ops1 ops2 t k Hd Hn.
  destruct (worker_abs sampler dry c ops1) as (I & _ & [_ Hd1] & _).
  destruct (worker_abs sampler dry c (ops1 ++ ops2)) as (_ & _ & [_ Hd2] & _).
  rewrite <- Hd2, atrans_app, arun_app. rewrite <- Hd1 in Hd.
  apply arun_dec_stable; [exact I|exact Hd|]. rewrite (proj2 (ghost_atrans sampler dry ops2 _)). exact Hn.
Qed.
Print Assumptions C01_decision_final.

(* At most one decision is ever made for a never-forgotten trace (ghost history of the abstract
   machine the worker refines): its decisions are [] if undecided and [(t, k)] if decided k. *)
Theorem C01_at_most_one_decision :
  forall (sampler : N -> list span -> bool) (dry : bool) (c : cfg) (ops : list op) (t : N),
  ~ In (OForget t) ops ->
  occ t (a_hist (arun dry ainit (atrans sampler dry (winit c) ops))) =
  match alookup t (w_dec (fst (run sampler dry (winit c) ops))) with Some k => [(t, k)] | None => [] end.
Proof.
  intros sampler dry c ops t Hnf. destruct (worker_abs sampler dry c ops) as (I & _ & [_ Hd] & _ & _ & Hf).
  rewrite <- Hd. apply (abs_single_decision dry _ t I), Hf, Hnf.
Qed.
Print Assumptions C01_at_most_one_decision.

(* The model is the code's shape: the source constructs the model depends on are still there. *)
Example C01_code_shape :
  md_records_decision && ps_sendby_only_lowered_and_requeued && ps_new_trace_sendby_is_now_plus_timeout &&
  tick_takes_expired_with_max && collect_tick_runs_send_expired_at_now && collect_send_early_branch &&
  (* retention premise: a drop decision is remembered synchronously (recent-drop set) and a config reload that
     resizes the dropped-trace filter only records the next capacity — it never re-creates a filter generation *)
  record_drop_is_synchronously_remembered && negb resize_touches_filter_generations = true.
Proof. vm_compute. reflexivity. Qed.

(* Non-vacuity: root, child, a late span after a keep and after a drop, an ejection and a reload. *)
Definition ex_sampler (ver : N) (spans : list span) : bool :=
  negb (existsb (fun s => N.eqb (s_cls s) (1 + ver)) spans).
Definition ex_sp (t i : N) (root : bool) (cls : N) : span :=
  {| s_id := i; s_tid := t; s_root := root; s_cls := cls; s_size := 10; s_age := 0 |}.
Definition ex_cfg (ver : N) : cfg := {| c_ver := ver; c_tt := 100; c_sd := 10; c_sl := 0; c_me := 0 |}.
Definition ex_ops : list op :=
  [ OSpan 0 (ex_sp 1 1 false 0); OSpan 1 (ex_sp 2 2 false 1); OSpan 2 (ex_sp 1 3 true 0);
    OTick 12 [1%N];                       (* trace 1: root + SendDelay -> kept *)
    OSpan 13 (ex_sp 1 4 false 0);         (* late span of a kept trace *)
    OEject 0 [2%N];                       (* trace 2 ejected: cls 1 -> dropped *)
    OSpan 14 (ex_sp 2 5 false 0);         (* late span of a dropped trace *)
    OReload (ex_cfg 1);
    OSpan 15 (ex_sp 3 6 false 2); OTick 200 [3%N] ].  (* decided by the reloaded sampler: dropped *)
Example C01_nonvacuous :
  forallb (fun o => match o with OForget _ => false | _ => true end) ex_ops = true /\
  concat (snd (run ex_sampler false (winit (ex_cfg 0)) ex_ops)) =
    [(1, 1, R_root); (1, 3, R_root); (1, 4, R_late)]%N /\
  w_dec (fst (run ex_sampler false (winit (ex_cfg 0)) ex_ops)) = [(3, false); (2, false); (1, true)]%N.
Proof. vm_compute. repeat split; reflexivity. Qed.
