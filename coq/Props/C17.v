(* C17 — all nodes agree on which peer owns each trace; single hop; never forward to self.
   Only theorem statements closed by [exact]; proofs live in Proofs/Shard.v and Proofs/ShardMax.v.
   H is wyhash.Hash as an arbitrary function; salt/seed/partition count/strictness are arbitrary
   (the Monitor instantiates them with the values regenerated from the source, Gen/GenC17.v);
   [GenC17.sorts_peers] is the regenerated flag "loadPeerList sorts newPeers": the theorems are about the
   model instance with that flag, so removing the sort from the source breaks these proofs.
   From Proofs/Shard.v: [cluster_ok] (nodes with distinct addresses, each with a permutation of the
   peer list and an admissible hash order, one node per peer), [cluster_ok_fn] (the same with one
   sort function for all), [canonical_owner] ([which] on the sorted peer list), [benign_b] ([benign]
   as a boolean test), [Hcoll] (the hash of C17_collision_matters); from Proofs/ShardMax.v: [hval]
   (the hash of the trace id against a partition). *)
From Refinery Require Import Lib.Base Model.Shard Proofs.Shard Proofs.ShardMax Gen.GenC17.
From Coq Require Import Sorting.Sorted Sorting.Permutation.

(* (1) Every node runs the same binary, i.e. the same sort.Slice function [srt] (ANY function):
   nodes that hold permutations of one peer list compute the same owner for every trace id.
   No assumption on the hash at all. *)
Theorem C17_owner_perm_invariant : forall H salt seed0 pcount strict (srt : list part -> list part) peers1 peers2 tid,
  Permutation peers1 peers2 ->
  which_with H salt seed0 pcount strict sorts_peers srt peers1 tid =
  which_with H salt seed0 pcount strict sorts_peers srt peers2 tid.
Proof. exact owner_perm_invariant_fn. Qed.
Print Assumptions C17_owner_perm_invariant.

(* (1') Nodes may even use different sort.Slice implementations / tie orders: [hs1], [hs2] are ANY lists
   sorted by uhash that are permutations of the partition list. Then the owners agree provided equal
   partition hashes occur only between partitions of the same address ([benign]: no 64-bit wyhash
   collision among the <= 50+n partition hashes of different peers). C17_collision_matters shows that
   this hypothesis cannot be dropped in this generality. *)
Theorem C17_owner_perm_invariant_any_sort : forall H salt seed0 pcount strict peers1 peers2 hs1 hs2 tid,
  Permutation peers1 peers2 ->
  hash_order H salt seed0 pcount (load_peers sorts_peers peers1) hs1 ->
  hash_order H salt seed0 pcount (load_peers sorts_peers peers2) hs2 ->
  benign H salt seed0 pcount (load_peers sorts_peers peers1) ->
  owner H strict (load_peers sorts_peers peers1) hs1 tid = owner H strict (load_peers sorts_peers peers2) hs2 tid.
Proof. exact owner_perm_invariant. Qed.
Print Assumptions C17_owner_perm_invariant_any_sort.

Theorem C17_collision_matters :
  let lp := ["a"; "b"]%string in
  let hs1 := [{| uhash := 5; pix := 0 |}; {| uhash := 5; pix := 1 |}]%N in
  let hs2 := [{| uhash := 5; pix := 1 |}; {| uhash := 5; pix := 0 |}]%N in
  hash_order Hcoll "x" 1 0 lp hs1 /\ hash_order Hcoll "x" 1 0 lp hs2 /\
  owner Hcoll true lp hs1 "t" <> owner Hcoll true lp hs2 "t".
Proof. exact collision_matters. Qed.
Print Assumptions C17_collision_matters.

(* (2) The owner is always one of the peers (any non-empty list, duplicates allowed, any hash order). *)
Theorem C17_owner_in_peers : forall H salt seed0 pcount strict peers hs tid,
  peers <> [] ->
  Permutation hs (partitions H salt seed0 pcount (load_peers sorts_peers peers)) ->
  In (owner H strict (load_peers sorts_peers peers) hs tid) peers.
Proof. exact owner_in_peers. Qed.
Print Assumptions C17_owner_in_peers.

(* (3) Single hop. A cluster: nodes with distinct addresses, each holding a permutation of [peers]
   and its own admissible hash order, one node per peer address. A span of trace [tid] entering at ANY
   node [e] is collected by the canonical owner o (one of the peers): with no forwarding when e is the
   owner, after exactly one forwarding hop (to o) otherwise. *)
Theorem C17_one_hop : forall H salt seed0 pcount strict peers nodes e tid fuel,
  cluster_ok H salt seed0 pcount peers nodes ->
  benign H salt seed0 pcount (load_peers sorts_peers peers) ->
  In e nodes ->
  let o := canonical_owner H salt seed0 pcount strict peers tid in
  In o peers /\
  deliver H strict sorts_peers (S (S fuel)) nodes (self e) tid =
    (if String.eqb o (self e) then [] else [o], Some o).
Proof. exact one_hop. Qed.
Print Assumptions C17_one_hop.

(* (3') the same with one sort function for all nodes and no hash hypothesis *)
Theorem C17_one_hop_same_binary : forall H salt seed0 pcount strict srt peers nodes e tid fuel,
  cluster_ok_fn H salt seed0 pcount srt peers nodes ->
  In e nodes ->
  let o := which_with H salt seed0 pcount strict sorts_peers srt peers tid in
  In o peers /\
  deliver H strict sorts_peers (S (S fuel)) nodes (self e) tid =
    (if String.eqb o (self e) then [] else [o], Some o).
Proof. exact one_hop_fn. Qed.
Print Assumptions C17_one_hop_same_binary.

(* (4) No node forwards a span to itself. *)
Theorem C17_never_forward_to_self : forall H strict nd tid a,
  route H strict sorts_peers nd tid = Forward a -> a <> self nd.
Proof. exact never_forward_to_self. Qed.
Print Assumptions C17_never_forward_to_self.

(* (5) The source constructs the model mirrors are still there (flags regenerated from the repository). *)
Theorem C17_source_shape :
  sorts_peers && peer_order_is_string_lt && sorts_hashes_by_uhash && partition_hash_is_addr_seed &&
  ppp_is_count_div_len_plus_1 && which_returns_peers_bestix && xorb which_strict which_nonstrict &&
  route_forwards_iff_not_mine = true.
Proof. exact source_shape. Qed.
Print Assumptions C17_source_shape.

(* (6) What the owner IS (with the comparison found in the source, [which_strict] = `h > maxHash`): the peer that holds
   a partition whose trace hash H tid uhash is positive and maximal over all partitions, or peers[0] when every trace
   hash is 0. The choice depends on the partitions only through (uhash, address), which is why the order of the peer
   list cannot matter. *)
Theorem C17_owner_is_argmax : forall H tid lp hs,
  (owner H which_strict lp hs tid = nth 0 lp EmptyString /\ Forall (fun p => hval H tid p = 0%N) hs) \/
  (exists p, In p hs /\ owner H which_strict lp hs tid = nth (pix p) lp EmptyString /\ (0 < hval H tid p)%N /\
             Forall (fun q => (hval H tid q <= hval H tid p)%N) hs).
Proof. exact owner_is_argmax. Qed.
Print Assumptions C17_owner_is_argmax.

(* Non-vacuity: a concrete hash, three peers given in two orders plus a duplicate-free cluster of three
   nodes with different views; hypotheses hold, the owner is "n3", the span entering at "n1" makes one hop. *)
Local Open Scope string_scope.
Definition Hex (s : string) (seed : N) : N :=
  ((N.of_nat (String.length s) * 7919 + fold_right (fun a acc => (N_of_ascii a + 31 * acc) mod 1000003) 0 (list_ascii_of_string s)
    + seed * 104729) * 2654435761 mod 4294967291)%N.

Example C17_nonvacuous :
  let P := ["n2"; "n3"; "n1"]%string in
  let Q := ["n3"; "n1"; "n2"]%string in
  let hsOf v := sort_parts (partitions Hex "anything" 7 5 (load_peers sorts_peers v)) in
  let nodes := [ {| self := "n1"; view := P; nhs := hsOf P |};
                 {| self := "n2"; view := Q; nhs := hsOf Q |};
                 {| self := "n3"; view := P; nhs := hsOf P |} ]%string in
  benign_b Hex "anything" 7 5 (load_peers sorts_peers P) = true /\
  length (partitions Hex "anything" 7 5 (load_peers sorts_peers P)) = 6%nat /\
  which Hex "anything" 7 5 true sorts_peers P "t4" = "n3"%string /\
  which Hex "anything" 7 5 true sorts_peers Q "t4" = "n3"%string /\
  deliver Hex true sorts_peers 5 nodes "n1" "t4" = (["n3"%string], Some "n3"%string) /\
  deliver Hex true sorts_peers 5 nodes "n3" "t4" = ([], Some "n3"%string).
Proof. vm_compute. repeat split; reflexivity. Qed.
