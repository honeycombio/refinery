(* C15 — stress relief switches with hysteresis on a bounded stress level.
   Statements; each is closed by a lemma of Proofs/Stress.v, Proofs/StressFloat.v or Lib/Base.v, or by
   a line or two instantiating one; the source shape (flags and constants of Gen/GenC15.v), the level
   of the specification (read off lstep) and the example are evaluated.

   srun PT (sinit t0 c0) ops : the trace of recalculations (oldest first) of the executable model of
       collect/stressRelief.go over a history of Recalc(own level) / peer reports / clock advances /
       configuration reloads; every record holds the instant, the configuration in force, the own
       level, the cluster level, the level acted on and whether relief is on afterwards.
   lrun : specification of the level — the latest report of every key, filtered by age when used.
   expected_on past c now lvl : specification of the switch as a function of the observable trace. *)
From Refinery Require Import Lib.Base Model.Stress Proofs.Stress Proofs.StressFloat Gen.GenC15.

(* The source has the modelled shape, reports expire after the 10 s PeerEntryTimeout, and the shipped
   defaults satisfy the documented side condition DeactivationLevel <= ActivationLevel. *)
Theorem C15_source_shape :
  peer_entry_timeout = 10000000000 /\ (default_deactivation_level <= default_activation_level)%N /\
  cluster_expires_after_peer_entry_timeout = true /\ cluster_sums_squares_of_nonzero = true /\
  cluster_is_sqrt_of_mean = true /\ overall_is_max = true /\
  switch_activates_at_activation_level = true /\ switch_pushes_hold_while_at_or_above_deactivation = true /\
  switch_deactivates_below_after_hold = true /\
  mode_switch_arms = [["""never"""; """"""]; ["""monitor"""]; ["""always"""]; ["default"]]%string.
Proof. repeat split; vm_compute; congruence. Qed.
Print Assumptions C15_source_shape.

(* Level, 1: the lazily expiring report map of the code computes, in every history whose clock does
   not run backwards, exactly the cluster level and acted-on level of the specification that keeps
   the latest report of every node and ignores those older than PeerEntryTimeout when it is used. *)
Theorem C15_level_refines_reports : forall PT t0 c ops,
  ops_ok ops = true ->
  map (fun q => (r_cluster q, r_level q)) (srun PT (sinit t0 c) ops) = lrun PT (linit t0) ops.
Proof. exact level_refines_reports. Qed.
Print Assumptions C15_level_refines_reports.

(* Level, 2: that specification's level is max(own, rms of the recent nonzero reports) ... *)
Theorem C15_level_is_max_rms : forall PT sp local,
  snd (lstep PT sp (SRecalc local)) =
    let rs := filter (recent PT (l_now sp)) (aset 0%N (local, l_now sp) (reports sp)) in
    Some (rms rs, N.max (rms rs) local).
Proof. reflexivity. Qed.
Print Assumptions C15_level_is_max_rms.

(* ... where rms is the integer part of the root mean square of the nonzero levels:
   c^2 * n <= sum of squares < (c+1)^2 * n. *)
Theorem C15_rms_is_floor_root_mean_square : forall m,
  let nz := filter nonzero m in let c := rms m in
  (c * c * count1 nz <= sumsq nz /\ sumsq nz < (c + 1) * (c + 1) * count1 nz)%N.
Proof. exact rms_floor. Qed.
Print Assumptions C15_rms_is_floor_root_mean_square.

(* Level, 3: the Go code computes uint(math.Sqrt(total / float64(n))) in binary64; for up to 4 reports
   with levels 0..100 (every possible total) truncating that float gives the integer model's value. *)
Theorem C15_float_rms_agrees_100 : forall n t,
  (1 <= n <= 4)%N -> (t <= n * 100 * 100)%N -> rms_agrees t n = true.
Proof. exact float_rms_agrees_100. Qed.
Print Assumptions C15_float_rms_agrees_100.

(* Level, 4: if every own level and every peer report in the history is at most B (B = 100 in the
   property), every recalculation's cluster level and acted-on level are at most B (and the level is
   at least the own level and the cluster level). *)
Theorem C15_level_bounded : forall PT B t0 c ops,
  forallb (op_le B) ops = true ->
  Forall (fun q => (r_cluster q <= B /\ r_level q <= B /\ r_local q <= r_level q /\ r_cluster q <= r_level q)%N)
         (srun PT (sinit t0 c) ops).
Proof. exact level_bounded. Qed.
Print Assumptions C15_level_bounded.

(* Switch: in every history (including reloads of mode, levels and duration at any point) every
   recalculation leaves relief exactly as expected_on says, given the recalculations before it. *)
Theorem C15_switch_follows_trace : forall PT t0 c0 ops pre q post,
  srun PT (sinit t0 c0) ops = pre ++ q :: post ->
  r_on q = expected_on (rev pre) (r_cfg q) (r_t q) (r_level q).
Proof. exact switch_follows_trace. Qed.
Print Assumptions C15_switch_follows_trace.

Theorem C15_never_is_off : forall PT t0 c0 ops pre q post,
  srun PT (sinit t0 c0) ops = pre ++ q :: post -> c_mode (r_cfg q) = MNever -> r_on q = false.
Proof. intros * H. apply switch_follows_trace in H. rewrite H. apply exp_never. Qed.
Print Assumptions C15_never_is_off.

Theorem C15_always_is_on : forall PT t0 c0 ops pre q post,
  srun PT (sinit t0 c0) ops = pre ++ q :: post -> c_mode (r_cfg q) = MAlways -> r_on q = true.
Proof. intros * H. apply switch_follows_trace in H. rewrite H. apply exp_always. Qed.
Print Assumptions C15_always_is_on.

(* monitor mode: on when the level reaches ActivationLevel (documented DeactivationLevel <= ActivationLevel) *)
Theorem C15_monitor_switches_on : forall PT t0 c0 ops pre q post,
  srun PT (sinit t0 c0) ops = pre ++ q :: post ->
  c_mode (r_cfg q) = MMonitor -> (c_deact (r_cfg q) <= c_act (r_cfg q))%N ->
  (c_act (r_cfg q) <= r_level q)%N -> r_on q = true.
Proof. intros * H. apply switch_follows_trace in H. rewrite H. apply exp_monitor_on. Qed.
Print Assumptions C15_monitor_switches_on.

(* ... and only then *)
Theorem C15_monitor_on_only_at_activation : forall PT t0 c0 ops pre q post,
  srun PT (sinit t0 c0) ops = pre ++ q :: post ->
  c_mode (r_cfg q) = MMonitor -> on_of (rev pre) = false -> r_on q = true ->
  (c_act (r_cfg q) <= r_level q)%N.
Proof. intros * H. apply switch_follows_trace in H. rewrite H. apply exp_on_only_if. Qed.
Print Assumptions C15_monitor_on_only_at_activation.

(* monitor mode: relief goes from on to off only at a recalculation whose level is below
   DeactivationLevel and that comes more than MinimumActivationDuration after the most recent
   recalculation that left relief on (in monitor mode) with the level at or above DeactivationLevel
   (levels and duration as in force at that recalculation). *)
Theorem C15_monitor_off_only_if : forall PT t0 c0 ops pre q post,
  srun PT (sinit t0 c0) ops = pre ++ q :: post ->
  c_mode (r_cfg q) = MMonitor -> on_of (rev pre) = true -> r_on q = false ->
  (r_level q < c_deact (r_cfg q))%N /\
  match last_above (rev pre) with
  | Some p => r_t p + c_mind (r_cfg p) < r_t q
  | None => True
  end.
Proof. intros * H. apply switch_follows_trace in H. rewrite H. apply exp_off_only_if. Qed.
Print Assumptions C15_monitor_off_only_if.

(* ... and conversely it stays on while the level is at or above DeactivationLevel or the hold runs *)
Theorem C15_monitor_stays_on : forall PT t0 c0 ops pre q post,
  srun PT (sinit t0 c0) ops = pre ++ q :: post ->
  c_mode (r_cfg q) = MMonitor -> on_of (rev pre) = true ->
  ((c_deact (r_cfg q) <= r_level q)%N \/
   exists p, last_above (rev pre) = Some p /\ r_t q <= r_t p + c_mind (r_cfg p)) ->
  r_on q = true.
Proof. intros * H. apply switch_follows_trace in H. rewrite H. apply exp_stays_on. Qed.
Print Assumptions C15_monitor_stays_on.

(* last_above picks the newest earlier recalculation that qualifies *)
Theorem C15_last_above_is_most_recent : forall past q,
  last_above past = Some q ->
  exists newer older, past = newer ++ q :: older /\ held q = true /\ forallb (fun x => negb (held x)) newer = true.
Proof. exact (find_split held). Qed.
Print Assumptions C15_last_above_is_most_recent.

(* Non-vacuity: monitor mode 90/75/10 s. Own level 95 switches on; 50 one second later stays on
   (hold); still on at exactly 10 s; off just after; a peer at 100 switches on again through the
   cluster level; after the peer's report is older than 10 s the level falls back to the own 0 and, the hold being
   over, relief switches off; a reload to always mode switches it on. *)
Example C15_nonvacuous :
  let c := {| c_mode := MMonitor; c_act := 90; c_deact := 75; c_mind := 10000000000 |} in
  let ops := [SRecalc 95; SAdv 1000000000; SRecalc 50; SAdv 9000000000; SRecalc 50; SAdv 1; SRecalc 50;
              SPeer 1 100; SRecalc 0; SAdv 10000000001; SRecalc 0; SConfig {| c_mode := MAlways; c_act := 90; c_deact := 75; c_mind := 0 |};
              SRecalc 0]%N in
  ops_ok ops = true /\ forallb (op_le 100) ops = true /\
  map (fun q => (r_cluster q, r_level q, r_on q)) (srun peer_entry_timeout (sinit 0 c) ops) =
    [(95, 95, true); (50, 50, true); (50, 50, true); (50, 50, false); (100, 100, true); (0, 0, false); (0, 0, true)]%N.
Proof. vm_compute. repeat split; reflexivity. Qed.
