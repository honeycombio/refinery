(* C27 — reloads apply exactly the acceptable changes.
   Statements; proofs in Proofs/Reload.v: each theorem is closed by a lemma from there or by a few lines
   instantiating one.
   gen_variant is the model variant whose flags (reload mutex present; only a nil config is fatal; reload
   validates with the startup version; unchanged = hash equality) are re-read from config/file_config.go;
   that they are all on is gen_variant_fixed in Proofs/Reload.v, evaluated on Gen/GenC27.v, and both
   theorems go through it.
   distinct_adj l : neighbours in l differ.  noted cb h (notes s) : how often listener cb was called for
   change h.  times_applied h (applied s) : how often a content with hash h was stored. *)
From Refinery Require Import Lib.Base Model.Reload Proofs.Reload.

(* One reload, whatever the sources hold (unreadable, or content with startup's verdict cacc, warnings or not):
   it applies the content iff the content changed and startup accepts it; then the running configuration is
   that content; otherwise the running configuration is unchanged. *)
Theorem C27_reload_applies_exactly_acceptable_changes : forall cur src,
  let '(c', a) := reload_seq gen_variant cur src in
  (a = true <-> exists c, src = Readable c /\ cacc c = true /\ chash c <> chash cur) /\
  (a = true -> src = Readable c') /\ (a = false -> c' = cur).
Proof.
  intros cur src. rewrite gen_variant_fixed. pose proof (reload_seq_spec fixed cur src) as H.
  destruct (reload_seq fixed cur src). cbv iota in H. setoid_rewrite acceptable_fixed in H. exact H.
Qed.
Print Assumptions C27_reload_applies_exactly_acceptable_changes.

(* Any number n of reloaders, any listeners (registered once each), any schedule interleaving source
   changes, triggers and the atomic steps of each Reload (lock, read, validate+compare, store, unlock,
   one callback at a time):
   - only contents startup accepts are ever stored, and the running configuration is always the last
     stored content (so a rejected / unreadable / unchanged read leaves it as it was);
   - no change is stored twice: consecutive stored contents (and the first vs. the initial one) differ;
   - no change is lost: a reloader that read content startup accepts releases the reload lock with the
     running configuration equal to what it read;
   - when all reloaders are idle, every listener has been called exactly once per stored change. *)
Theorem C27_overlapping_reloads : forall (n : nat) (c0 : content) (cbs : list N) (ops : list sop),
  NoDup cbs ->
  let s := srun gen_variant cbs (sinit n c0) ops in
  Forall (fun c => cacc c = true) (applied s) /\
  cur s = hd c0 (applied s) /\
  distinct_adj (map chash (applied s ++ [c0])) /\
  (forall t c k, nth t (threads s) Idle = Unlocking (Readable c) k -> cacc c = true -> chash (cur s) = chash c) /\
  (quiescent s = true -> forall cb h, In cb cbs -> noted cb h (notes s) = times_applied h (applied s)).
Proof. exact c27_interleaved. Qed.
Print Assumptions C27_overlapping_reloads.

(* The pinned tree violated both halves (repo fixes 0235e1b, 976556f): the same model with the old flags. *)
Example C27_unserialized_reload_refuted :
  let c0 := {| chash := 1; cacc := true; cwarn := false; cval := 1 |}%N in
  let c1 := {| chash := 2; cacc := true; cwarn := false; cval := 2 |}%N in
  let old := {| v_lock := false; v_warn_ok := true |} in
  let ops := [SetFile (Readable c1); Trigger 0; Trigger 1;
              Step 0; Step 1; Step 0; Step 1; Step 0; Step 1; Step 0; Step 1; Step 0; Step 1; Step 0; Step 1; Step 0; Step 1]%nat in
  let s := srun old [7%N] (sinit 2 c0) ops in
  quiescent s = true /\ map chash (applied s) = [2; 2]%N /\ notes s = [(7, 2); (7, 2)]%N.
Proof. vm_compute. repeat split; reflexivity. Qed.

Example C27_warning_only_reload_refuted :
  let c0 := {| chash := 1; cacc := true; cwarn := false; cval := 1 |}%N in
  let cw := {| chash := 2; cacc := true; cwarn := true; cval := 2 |}%N in
  reload_seq {| v_lock := true; v_warn_ok := false |} c0 (Readable cw) = (c0, false) /\
  reload_seq gen_variant c0 (Readable cw) = (cw, true).
Proof. vm_compute. split; reflexivity. Qed.

(* Non-vacuity: three reloaders race on one change, then a rejected content, then a warning-only one. *)
Example C27_nonvacuous :
  let c0 := {| chash := 1; cacc := true; cwarn := false; cval := 1 |}%N in
  let c1 := {| chash := 2; cacc := true; cwarn := false; cval := 2 |}%N in
  let bad := {| chash := 3; cacc := false; cwarn := false; cval := 0 |}%N in
  let cw := {| chash := 4; cacc := true; cwarn := true; cval := 4 |}%N in
  let run1 := [Trigger 0; Trigger 1; Trigger 2] ++ concat (repeat [Step 0; Step 1; Step 2] 30) in
  let ops := (SetFile (Readable c1) :: run1) ++ (SetFile (Readable bad) :: run1) ++ (SetFile (Readable cw) :: run1) in
  let s := srun gen_variant [7; 8]%N (sinit 3 c0) ops in
  quiescent s = true /\ map chash (applied s) = [4; 2]%N /\ cur s = cw /\
  notes s = [(8, 4); (7, 4); (8, 2); (7, 2)]%N.
Proof. vm_compute. repeat split; reflexivity. Qed.
