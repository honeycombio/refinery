(* C06 — forwarded spans are decorated as configured, including after reload.
   Statements; proofs in Proofs/Decorate.v: each theorem is closed by a lemma from there, the last one by
   unfolding [rec_count].  [step] / [run] are the forwarding model of Model/Rates.v ([Reload c] = the
   configuration changes to c and reloadConfigs runs); [d_keep], [d_reason] (Proofs/Rates.v) read the keep
   flag and the reason of a sampler's answer. *)
From Refinery Require Import Lib.Base Gen.GenC04 Model.Rates Model.Decorate Proofs.Rates Proofs.Decorate.

(* The configuration in force: after ANY history the model's current configuration is the one of the last
   reload (the initial one if none), and the host-metadata switch follows it - AddHostMetadataToTrace
   included (true because reloadConfigs re-evaluates it, read from the source: host_reloaded). *)
Theorem C06_config_in_force :
  forall dec sdec c0 ops,
  cf (fst (run dec sdec (init c0) ops)) = last_cfg c0 ops /\
  host_cur (fst (run dec sdec (init c0) ops)) = c_hostmeta (last_cfg c0 ops).
Proof. exact config_in_force. Qed.
Print Assumptions C06_config_in_force.

(* Every span forwarded by any operation (on time, late, stress relief) carries the additional attributes
   of the configuration in force, the hostname iff host metadata is on, and no reason when
   AddRuleReasonToTrace is off. *)
Theorem C06_forwarded_decoration :
  forall dec sdec s o x, In x (snd (step dec sdec s o)) ->
  o_attrs x = c_attrs (cf s) /\ o_host x = host_cur s /\ (c_reason (cf s) = false -> o_reason x = EmptyString).
Proof. exact forwarded_decoration. Qed.
Print Assumptions C06_forwarded_decoration.

(* On-time spans carry the sampler's reason when reasons are on; an on-time ROOT carries the counts of its
   trace as buffered at the decision (AddCountsToRoot: spans / events / span events / links;
   AddSpanCountToRoot alone: span_count = all descendants), non-roots carry none. *)
Theorem C06_ontime_reason_and_counts :
  forall dec sdec s x, In x (snd (step dec sdec s Decide)) ->
  o_stressed x = false /\
  exists tid tr sp, In (tid, tr) (buf s) /\ In sp (t_spans tr) /\ o_sid x = s_id sp /\
    o_reason x = (if c_reason (cf s) then Proofs.Rates.d_reason (dec tid) else EmptyString) /\
    counts_of x = (if s_root sp then expected_root (cf s) (cnt4 (t_spans tr)) else (0, 0, 0, 0)%N).
Proof. exact ontime_reason_and_counts. Qed.
Print Assumptions C06_ontime_reason_and_counts.

(* The decision record of a kept trace starts with exactly those counts and that reason ... *)
Theorem C06_record_counts_at_decision :
  forall dec s tid tr, Proofs.Rates.d_keep (dec tid) = true ->
  exists r, alookup tid (kept (fst (decide_one dec s tid tr))) = Some r /\ rec4 r = cnt4 (t_spans tr) /\
            r_reason r = Proofs.Rates.d_reason (dec tid).
Proof. exact record_counts_at_decision. Qed.
Print Assumptions C06_record_counts_at_decision.

(* ... every late span is counted into it once, by annotation type; a late root carries the counts
   including itself (= what had been received when it arrived) and the recorded reason marked as late. *)
Theorem C06_late_span_counted :
  forall dec sdec s sp x,
  In x (snd (step dec sdec s (Span sp))) -> mem_N (s_tid sp) (dropped s) = false ->
  exists r, alookup (s_tid sp) (kept s) = Some r /\
    alookup (s_tid sp) (kept (fst (step dec sdec s (Span sp)))) = Some (rec_count (s_ann sp) r) /\
    o_reason x = late_reason (cf s) (r_reason r) /\
    counts_of x = (if s_root sp then expected_root (cf s) (rec4 (rec_count (s_ann sp) r)) else (0, 0, 0, 0)%N).
Proof. exact late_span_counted. Qed.
Print Assumptions C06_late_span_counted.

Theorem C06_count_adds_exactly_one :
  forall a r, r_desc (rec_count a r) = (r_desc r + 1)%N /\
  (r_sev (rec_count a r) + r_link (rec_count a r) + r_span (rec_count a r) = r_sev r + r_link r + r_span r + 1)%N.
Proof.
  intros a r. unfold rec_count. cbn [r_desc r_sev r_link r_span]. split; [reflexivity|].
  destruct (N.eqb a 1) eqn:E1; destruct (N.eqb a 2) eqn:E2; cbn [orb]; lia.
Qed.
Print Assumptions C06_count_adds_exactly_one.

(* Not machine-checked here (labelled partial in notes/C06.md): the composition of the three count lemmas
   over a whole history into "record counts = every span received for the trace so far"; the observation-only
   monitor (Monitor/C06.v) checks exactly that on the implementation. *)

(* Non-vacuity: host metadata and attributes switched on by a reload between the on-time and the late root. *)
Example C06_nonvacuous :
  let dec := fun t : N => (2%N, true, "r"%string) in
  let sdec := fun t : N => (1%N, true, EmptyString) in
  let c0 := {| c_dry := false; c_reason := true; c_spancount := false; c_counts := true; c_hostmeta := false; c_attrs := [] |} in
  let c1 := {| c_dry := false; c_reason := true; c_spancount := false; c_counts := true; c_hostmeta := true; c_attrs := [(1, 2)]%N |} in
  let sp i root a := {| s_id := i; s_tid := 5; s_rate := 0; s_root := root; s_ann := a |} in
  map (map (fun o => (o_sid o, o_host o, o_attrs o, o_reason o, counts_of o)))
      (snd (run dec sdec (init c0) [Span (sp 1 false 1); Span (sp 2 true 0); Decide; Reload c1; Span (sp 3 true 2)]%N)) =
  [[]; [];
   [(1, false, [], "r", (0, 0, 0, 0)); (2, false, [], "r", (1, 2, 1, 0))]; [];
   [(3, true, [(1, 2)], "r - late arriving span", (1, 3, 1, 1))]]%N%string.
Proof. vm_compute. reflexivity. Qed.
