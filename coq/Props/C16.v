(* C16 — stress-relief decisions are deterministic, remembered, and delivered intact.
   Statements; the proofs are in Proofs/StressRoute.v and Proofs/StressRouteMore.v: each theorem is closed by a
   lemma from there or by a few lines instantiating one, (5) by evaluating the regenerated flags.
   Vocabulary defined there: [post_ok] (an upstream request is addressed to Honeycomb and its events are no probes
   and carry the request's key and dataset), [arr_sids] (the span ids of a schedule's arrivals), [up_shape] /
   [pr_shape] (what an event for Honeycomb / for the owning peer looks like), [wit_own], [wit_rule], [wit_ops]
   (the schedule of the counterexample).

   The machine [hrun own keep_rule alias] is the reference-aware model of one node (events are heap cells,
   transmissions queue references, destination and payload are read at send time).  The theorems are about the
   instance [alias = negb GenC16.probe_is_copy], i.e. about the code as the translator finds it: if the copy of the
   probe disappears from route/route.go these proofs no longer type-check ([negb probe_is_copy] computes to [false],
   which is what the lemmas are about; with the flag false the [exact] / [change] below fail to unify).
   [own] (the sharder) and [keep_rule] (wyhash(traceID, hashSeed) <= MaxUint64/SamplingRate) are arbitrary functions. *)
From Refinery Require Import Lib.Base Model.StressRoute Proofs.StressRoute Proofs.StressRouteMore Gen.GenC16.
From Coq Require Import Sorting.Permutation.

(* (1) Decisions, memory, and delivery, for EVERY schedule of span arrivals (owned and not owned traces), stress
   switching on and off, and upstream / peer batch dispatches at any points, followed by a final dispatch:
   - the multiset of events received by Honeycomb is exactly [spec_up]: one event per span that arrives under
     stress and is kept by the rule (marked stressed), and one per span of a trace seen under stress and kept that
     this node's collector handles after relief ended (late), each with its own trace, key, dataset, host Honeycomb,
     and NOT marked as a probe;
   - the owning peer receives exactly [spec_pr]: one probe per kept stressed span of a trace it owns, and the plain
     forwards of unstressed times;
   - the drop / buffer outcomes are exactly [spec_ev]: under stress a span is dropped iff the rule says so (never
     buffered); after relief a span of a trace decided under stress follows that decision (never buffered),
     unless this node already holds that trace in its buffer because it FIRST saw it while not stressed
     (such a trace is not "first seen during stress": its spans keep joining the buffered trace). *)
Theorem C16_decided_remembered_delivered : forall own keep_rule ops,
  let outs := snd (hrun own keep_rule (negb probe_is_copy) hinit (ops ++ [FlushUp; FlushPeer])) in
  Permutation (all_posted true outs) (spec_up own keep_rule false [] [] ops) /\
  Permutation (all_posted false outs) (spec_pr own keep_rule false [] [] ops) /\
  events outs = spec_ev own keep_rule false [] [] ops.
Proof. exact delivered_exactly. Qed.
Print Assumptions C16_decided_remembered_delivered.

(* (2) "exactly once": the specification lists every span at most once when span ids are distinct. *)
Theorem C16_exactly_once : forall own keep_rule ops st seen buf,
  NoDup (arr_sids ops) -> NoDup (map p_sid (spec_up own keep_rule st seen buf ops)).
Proof. exact spec_up_nodup. Qed.
Print Assumptions C16_exactly_once.

(* (3) Every request the upstream transmission ever sends (at any dispatch point of any schedule) is addressed to
   the Honeycomb API (host 0) and every event in it is not a probe, still carries host Honeycomb, and has the
   request's key and dataset: no node forwards a probe to Honeycomb, and the probe does not affect destination,
   key or dataset of the kept span. *)
Theorem C16_upstream_requests_intact : forall own keep_rule ops o,
  In o (snd (hrun own keep_rule (negb probe_is_copy) hinit ops)) -> post_ok o.
Proof.
  intros own keep_rule ops. change (negb probe_is_copy) with false. rewrite copy_refines_values.
  apply Forall_forall, vrun_intact. constructor.
Qed.
Print Assumptions C16_upstream_requests_intact.

(* (3') What the specification lists contain (so, by (1), what actually arrives): every event for Honeycomb is not a
   probe, addressed to Honeycomb, and marked stressed (decided under stress) or late (remembered decision), never
   both; every event for the owning peer is addressed to the owner of its trace and is either a stressed probe or a
   plain unmarked forward; hence the owner's collector, which discards probes on receipt, only gets plain forwards. *)
Theorem C16_honeycomb_events_shape : forall own keep_rule ops st seen buf,
  Forall up_shape (spec_up own keep_rule st seen buf ops).
Proof. exact spec_up_shape. Qed.
Print Assumptions C16_honeycomb_events_shape.

Theorem C16_owner_receives_probes_and_forwards : forall own keep_rule ops st seen buf,
  Forall (pr_shape own) (spec_pr own keep_rule st seen buf ops).
Proof. exact spec_pr_shape. Qed.
Print Assumptions C16_owner_receives_probes_and_forwards.

Theorem C16_owner_collects_only_forwards : forall own keep_rule ops st seen buf p,
  In p (spec_pr own keep_rule st seen buf ops) -> p_probe p = false -> p_stressed p = false /\ p_late p = false.
Proof. exact owner_collects_only_forwards. Qed.
Print Assumptions C16_owner_collects_only_forwards.

(* (4) The finding, on the model of the tree BEFORE the fix (the probe is the queued cell itself): trace 1 is
   owned by peer 1, trace 2 by this node, both kept under stress.  The upstream batch is posted to the PEER
   (host 1), span 10 is serialized as a probe with the peer's address, and span 11 — whose trace this node owns —
   is marked as a probe too; with the copy the same schedule delivers both spans intact to Honeycomb. *)
Theorem C16_alias_refuted :
  snd (hrun wit_own wit_rule true hinit wit_ops) =
    [ Post true 1 7 3 [ mkPay 10 1 7 3 1 true true false; mkPay 11 2 7 3 0 true true false ];
      Post false 1 7 3 [ mkPay 10 1 7 3 1 true true false ] ] /\
  snd (hrun wit_own wit_rule false hinit wit_ops) =
    [ Post true 0 7 3 [ mkPay 10 1 7 3 0 false true false; mkPay 11 2 7 3 0 false true false ];
      Post false 1 7 3 [ mkPay 10 1 7 3 1 true true false ] ].
Proof. exact alias_refuted. Qed.
Print Assumptions C16_alias_refuted.

(* (5) The source constructs the model mirrors (flags regenerated from the repository). *)
Theorem C16_source_shape :
  probe_is_copy && probe_marked_in_process_event && probe_discarded_on_receipt && forward_overwrites_apihost &&
  rule_is_hash_le_bound && rate_le_1_keeps_all && bound_is_max_div_rate && kept_span_marked_stressed &&
  stress_decision_recorded && batch_destination_read_at_send_time && batch_key_computed_at_enqueue = true.
Proof. reflexivity. Qed.
Print Assumptions C16_source_shape.

(* Non-vacuity: a schedule with a kept owned trace, a kept foreign trace, a dropped trace, relief ending, late
   spans of all three, and a span of an unknown trace; the specification is non-trivial on it. *)
Definition ex_own (tid : N) : N := if N.eqb tid 2 then 1%N else 0%N.
Definition ex_rule (tid : N) : bool := negb (N.eqb tid 3).
Definition ex_ops : list op :=
  [Stress true; Arr 10 1 7 3; Arr 11 2 7 3; Arr 12 3 7 3; Arr 13 1 8 3; FlushUp; Stress false;
   Arr 14 1 7 3; Arr 15 2 7 3; Arr 16 3 7 3; Arr 17 4 7 3].
Example C16_nonvacuous :
  NoDup (arr_sids ex_ops) /\
  map p_sid (spec_up ex_own ex_rule false [] [] ex_ops) = [10; 11; 13; 14]%N /\
  map p_sid (spec_pr ex_own ex_rule false [] [] ex_ops) = [11; 15]%N /\
  spec_ev ex_own ex_rule false [] [] ex_ops = [Dropped 12; Dropped 16; Buffered 17]%N /\
  length (snd (hrun ex_own ex_rule (negb probe_is_copy) hinit (ex_ops ++ [FlushUp; FlushPeer]))) = 7%nat.
Proof.
  split; [repeat constructor; cbn; intuition discriminate|]. vm_compute. repeat split; reflexivity.
Qed.
