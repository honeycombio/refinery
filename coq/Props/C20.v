(* C20 — forwarded events carry exactly the client's fields.
   Statements; proofs in Proofs/Payload.v. Each theorem is closed by a lemma from there or by a few lines
   instantiating one; the facts about the generated tables and the counterexample are checked by evaluation.

   Vocabulary (Model/Payload.v; [path_spec] is defined in Proofs/Payload.v):
     fs            the client's payload: fields (key bytes, msgpack/JSON value AST) in wire order
     pa            ingestion path: /1/batch msgpack, /1/batch JSON, /1/events JSON, /1/events msgpack,
                   metadata-only unmarshalling (OTLP-produced msgpack)
     c             TraceIdFieldNames, ParentIdFieldNames, sampler key fields (any lists)
     ops           what the collector does to a kept span, in any order and number:
                   MemoizeFields(keys) and Set(k, v) (meta.* annotations, configured attributes)
     forward ...   = Some out : the data map that leaves in the batch sent to Honeycomb or to a peer
     reserved k    k is a key of types.metadataFields (table regenerated from the source each run)
     canon widen   the value up to the width chosen on the wire inside ONE msgpack type
                   (int8..uint64 by value, float32/float64 by value); every other type is kept as is
     path_spec     bin -> str on the msgpack /1/events path (finding C20-event-msgpack-bin-becomes-str),
                   identity on every other path *)
From Refinery Require Import Lib.Base Lib.SMap_route2 Gen.GenC20 Model.Payload Proofs.Payload.

(* Full statement, for every payload with unique keys, every configuration, every path and every
   sequence of collector operations. [widen] is Go's exact float32->float64 conversion. *)
Theorem C20_forward_preserves_fields : forall (widen : N -> N) pa c ua fs ops out,
  NoDup (skeys fs) ->
  forward widen pa c ua fs ops = Some out ->
  NoDup (skeys out) /\
  (forall k, reserved k = false -> ~ In k (set_keys ops) ->
      option_map (canon widen) (slookup k out) =
      option_map (fun v => canon widen (path_spec pa v)) (slookup k fs)) /\
  (forall k, In k (skeys out) -> reserved k = true \/ In k (skeys fs) \/ In k (set_keys ops)) /\
  (forall k v, reserved k = false -> last_set k ops = Some v ->
      option_map (canon widen) (slookup k out) = Some (canon widen v)).
Proof. exact forward_preserves. Qed.
Print Assumptions C20_forward_preserves_fields.

(* On every path but the loose msgpack /1/events one the msgpack type is kept exactly. *)
Theorem C20_types_kept_except_loose_path : forall (widen : N -> N) pa c ua fs ops out k,
  pa <> PEventMsgp ->
  NoDup (skeys fs) -> forward widen pa c ua fs ops = Some out ->
  reserved k = false -> ~ In k (set_keys ops) ->
  option_map (canon widen) (slookup k out) = option_map (canon widen) (slookup k fs).
Proof. exact types_kept_except_loose_path. Qed.
Print Assumptions C20_types_kept_except_loose_path.

(* Standard msgpack timestamps survive bit for bit (as (seconds, nanoseconds) of ext -1) on every
   path, memoised or not: the statement that failed before fix dbe32fa. It rests on
   [time_standard = true], a fact recomputed from the source of MarshalMsg / appendMemoizedValue. *)
Theorem C20_timestamps_exact : forall (widen : N -> N) pa c ua fs ops out k s n,
  NoDup (skeys fs) -> forward widen pa c ua fs ops = Some out ->
  reserved k = false -> ~ In k (set_keys ops) ->
  slookup k fs = Some (VTime s n) -> slookup k out = Some (VTime s n).
Proof. exact timestamps_exact. Qed.
Print Assumptions C20_timestamps_exact.

Theorem C20_strings_exact : forall (widen : N -> N) pa c ua fs ops out k s,
  NoDup (skeys fs) -> forward widen pa c ua fs ops = Some out ->
  reserved k = false -> ~ In k (set_keys ops) ->
  slookup k fs = Some (VStr s) -> slookup k out = Some (VStr s).
Proof. exact strings_exact. Qed.
Print Assumptions C20_strings_exact.

(* Two hops: a span forwarded to its owner and forwarded again by the owner (after its collector's
   operations) still carries the client's fields. *)
Theorem C20_two_hops_preserve_fields : forall (widen : N -> N) pa c ua fs out1 c2 ua2 ops2 out2 k,
  NoDup (skeys fs) ->
  forward widen pa c ua fs [] = Some out1 ->
  forward widen PBatchMsgp c2 ua2 out1 ops2 = Some out2 ->
  reserved k = false -> ~ In k (set_keys ops2) ->
  option_map (canon widen) (slookup k out2) =
  option_map (fun v => canon widen (path_spec pa v)) (slookup k fs).
Proof.
  intros widen pa c ua fs out1 c2 ua2 ops2 out2 k Hnd H1 H2 Hr Hs.
  destruct (forward_preserves widen pa c ua fs [] out1 Hnd H1) as (Hn1 & Hp1 & _).
  destruct (forward_preserves widen PBatchMsgp c2 ua2 out1 ops2 out2 Hn1 H2) as (_ & Hp2 & _).
  rewrite (Hp2 k Hr Hs). exact (Hp1 k Hr (fun x => x)).
Qed.
Print Assumptions C20_two_hops_preserve_fields.

(* "msgpack values keep their encoded type" is false on the msgpack /1/events path: a bin value
   leaves as str (the faithful model reproduces it; replayed on the Go code it is the known finding). *)
Theorem C20_event_msgpack_bin_type_refuted :
  exists c ua fs out k s,
    NoDup (skeys fs) /\ reserved k = false /\
    forward (fun b => b) PEventMsgp c ua fs [] = Some out /\
    slookup k fs = Some (VBin s) /\ slookup k out = Some (VStr s).
Proof.
  exists {| trace_names := []; parent_names := []; key_fields := [] |}, EmptyString,
         [("a"%string, VBin "xyz")], [(meta_refinery_root, VBool true); ("a"%string, VStr "xyz")], "a"%string, "xyz"%string.
  split; [constructor; [intros []|constructor]|].
  vm_compute. repeat split; reflexivity.
Qed.
Print Assumptions C20_event_msgpack_bin_type_refuted.

(* The facts about the Go source the model and the proofs rest on, recomputed by the translator on
   every run: MarshalMsg's three skip conditions, memoised time.Time written with AppendTimeExt at
   every depth, and the metadataFields table (all names start with "meta.", known types, no duplicates). *)
Theorem C20_source_facts : marshal_shape_ok && time_standard && table_ok GenC20.metadata_fields = true.
Proof. vm_compute. reflexivity. Qed.
Print Assumptions C20_source_facts.

(* Non-vacuity: a msgpack batch event with a sampler key field holding a timestamp, a nested map, a
   uint that is re-encoded as a fixint, a reserved name of the wrong type (dropped, as the property
   allows), a trace id, and a collector that memoises another field and sets an attribute. *)
Example C20_nonvacuous :
  let fs := [("name", VTime 1700000000 5); ("trace.trace_id", VStr "t1");
             ("n", VUint 7); ("meta.span_count", VStr "x");
             ("m", VMap [("k", VArr [VTime 1 0; VBin "b"])]); ("raw", VF32 5)]%string in
  let c := {| trace_names := ["trace.trace_id"]; parent_names := []; key_fields := ["name"; "n"] |}%string in
  let ops := [OMemoize ["m"; "absent"]; OSet "env" (VStr "prod"); OSet "meta.span_count" (VInt 3)]%string in
  NoDup (skeys fs) /\
  forward (fun b => b) PBatchMsgp c "ua/1" fs ops =
  Some [("meta.trace_id", VStr "t1"); ("meta.refinery.root", VBool true);
        ("meta.refinery.incoming_user_agent", VStr "ua/1"); ("meta.span_count", VInt 3);
        ("env", VStr "prod"); ("m", VMap [("k", VArr [VTime 1 0; VBin "b"])]);
        ("n", VInt 7); ("name", VTime 1700000000 5);
        ("trace.trace_id", VStr "t1"); ("raw", VF32 5)]%string.
Proof.
  split.
  - repeat constructor; cbn [In skeys map fst]; intros H;
      repeat (destruct H as [H|H]; [discriminate H|]); exact H.
  - vm_compute. reflexivity.
Qed.
