(* C35 — concurrent components never race on shared state  (PARTIAL CLAIM).
   Statements; each is closed by a lemma of Proofs/Locks.v or Proofs/LocksInst.v, or by a few lines
   instantiating one.

   What is proved: a lockset / happens-before discipline is sound in an interleaving semantics of
   goroutines (all runs, unbounded), and the access tables regenerated from the Go source on every
   run pass the discipline check.  What is NOT proved (hence partial): that the real program's runs
   conform to the tables — the tables are syntactic (no alias analysis, dynamic dispatch by name,
   lifecycle edges Start-before-use / use-before-Stop listed by hand), and the Go runtime's mutex /
   channel / WaitGroup semantics are modelled.  The runtime side is searched with the Go race
   detector by harness/drive/c35.go. *)
From Refinery Require Import Lib.Base Model.Locks Model.LocksInst Proofs.Locks Proofs.LocksInst.
Local Open Scope nat_scope.

(* Generic soundness, dynamic form: in every well-formed interleaving of acquire / release / access /
   post / await steps, if every pair of conflicting accesses (same field of the same object,
   different goroutines, not both reads, not both atomic) holds a common lock — exclusively on at
   least one side — or is bracketed by a listed synchronisation edge, then every such pair is
   ordered by happens-before: no data race. *)
Theorem C35_lockset_sound : forall tbl tr,
  wf_locks tr ->
  (forall i j, conflict tbl tr i j -> lock_covered tr i j \/ edge_covered tr i j) ->
  race_free tbl tr.
Proof. exact lockset_sound. Qed.
Print Assumptions C35_lockset_sound.

Theorem C35_lockset_sound_no_race : forall tbl tr,
  wf_locks tr ->
  (forall i j, conflict tbl tr i j -> lock_covered tr i j \/ edge_covered tr i j) ->
  forall i j, ~ race tbl tr i j.
Proof. exact lockset_sound_no_race. Qed.
Print Assumptions C35_lockset_sound_no_race.

(* Generic soundness, static form: if the boolean discipline check accepts an access table, every
   well-formed run of every program the table describes is race free. *)
Theorem C35_table_sound : forall tbl singleton owner pown gate,
  well_protected singleton tbl = true ->
  forall tr, wf_locks tr -> wf_edges tr -> conforms tbl singleton owner pown gate tr ->
  race_free tbl tr.
Proof. exact table_sound. Qed.
Print Assumptions C35_table_sound.

(* The instance: the tables regenerated from the Go source pass the check (and the side checks:
   singleton roles are started only by their listed launchers; all anchored structs are present). *)
Theorem C35_instance_ok : c35_instance_ok = true.
Proof.
  unfold c35_instance_ok. rewrite c35_well_protected.
  apply andb_true_iff. split; vm_compute; reflexivity.
Qed.
Print Assumptions C35_instance_ok.

(* ... hence (partial: for runs that conform to the tables) no data race on any listed field. *)
Theorem C35_no_data_race_partial : forall owner pown gate tr,
  wf_locks tr -> wf_edges tr ->
  conforms c35_table c35_singleton owner pown gate tr ->
  race_free c35_table tr.
Proof. intros owner pown gate. apply table_sound. exact c35_well_protected. Qed.
Print Assumptions C35_no_data_race_partial.

(* The defective rows of the pinned tree (cuckooSentCache.kept swapped by Resize; fileConfig hashes
   and callbacks read outside mux; ConfigWatcher.done assigned in monitor; InMemCollector.reload
   created after the callback is registered; RedisPubsubPeers hash/callbacks unguarded;
   SamplerFactory.sharedDynsamplers length read outside the mutex) are rejected
   by the same check: each was repaired by a fix: commit, after which C35_instance_ok holds. *)
Theorem C35_pinned_tree_rows_rejected :
  well_protected c35_singleton (map mk_site pinned_kept) = false /\
  well_protected c35_singleton (map mk_site pinned_filecfg) = false /\
  well_protected c35_singleton (map mk_site pinned_watcher) = false /\
  well_protected c35_singleton (map mk_site pinned_collector_reload) = false /\
  well_protected c35_singleton (map mk_site pinned_peers) = false /\
  well_protected c35_singleton (map mk_site pinned_sampler) = false.
Proof. vm_compute. repeat split; reflexivity. Qed.
Print Assumptions C35_pinned_tree_rows_rejected.

(* Non-vacuity: a concrete table and a concrete nine-step run of two goroutines (and the one that posts their
   start) satisfy every hypothesis of the table theorem and contain a conflicting pair, which is therefore ordered. *)
Example C35_nonvacuous :
  well_protected demo_single demo_tbl = true /\ wf_locks demo_run /\ wf_edges demo_run /\
  conforms demo_tbl demo_single demo_owner demo_pown demo_gate demo_run /\
  conflict demo_tbl demo_run 3 7 /\ hb demo_run 3 7.
Proof.
  assert (Hwp : well_protected demo_single demo_tbl = true) by (vm_compute; reflexivity).
  split; [exact Hwp|]. split; [exact demo_wf_locks|]. split; [exact demo_wf_edges|].
  split; [exact demo_conforms|]. split; [exact demo_conflict|].
  exact (table_sound demo_tbl demo_single demo_owner demo_pown demo_gate Hwp demo_run
           demo_wf_locks demo_wf_edges demo_conforms 3 7 demo_conflict).
Qed.

(* ... and the generated table really contains lock-protected conflicting pairs. *)
Example C35_table_nonvacuous : 100 <= lock_protected_pairs c35_table.
Proof.
  (* a prefix suffices for a lower bound: the pairs are counted among the first 200 rows *)
  etransitivity; [|apply (lock_protected_pairs_prefix 200)].
  vm_compute. repeat constructor.
Qed.
