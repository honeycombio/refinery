(* C33 — the metrics store reports what was recorded.
   Statements; proofs in Proofs/Metrics.v, MetricsConc.v and Recorder.v. Each theorem is closed by a
   lemma from there; the source shape, the width fact and the recorder's stale-snapshot schedule are
   checked here.

   mrun false minit ops : the executable model of metrics/multi_metrics.go after the fix (Register
   creates a value cell only when it is absent); mrun true ... : the pinned code (Register stores a
   fresh zero).  uses_as k name : name is used as a metric of kind k only (registrations of it all
   say k, value operations on it are of kind k, it is not also a Store()d constant, counts >= 0).
   slot_ok sl : sl is one of the four value maps (counters, gauges, updowns, stores); getc s sl n is the
   cell of name n in it.  reg_or_used name ops : ops registers name or uses it (Store apart) at least
   once.  csum / udsum / lastset s_gauge : sum of the increments, ups minus downs, last value set. *)
From Refinery Require Import Lib.Base Model.Metrics Proofs.Metrics Model.MetricsConc Proofs.MetricsConc Model.Recorder Proofs.Recorder Gen.GenC33.

Theorem C33_source_shape :
  register_keeps_existing_counter = true /\ register_keeps_existing_gauge = true /\
  register_keeps_existing_updown = true /\ register_replaces_a_cell = false /\
  hd ""%string get_lookup_order = "stores"%string /\
  (* sample/sample.go: the dynsampler metrics recorder takes its snapshot while holding its mutex *)
  recorder_snapshot_taken_under_mutex = true /\ recorder_snapshot_taken_before_mutex = false /\
  recorder_counts_delta_to_last_seen = true.
Proof. repeat split; vm_compute; congruence. Qed.
Print Assumptions C33_source_shape.

(* Every value cell is exactly the fold, over the whole history, of the operations addressed to it:
   operations on other metrics (or other kinds) never disturb it. Holds for any history. *)
Theorem C33_cell_is_fold_of_its_operations : forall reset ops s sl n,
  slot_ok sl ->
  getc (fst (mrun reset s ops)) sl n = fold_left (fun v o => eff reset sl n o v) ops (getc s sl n).
Proof. exact cell_run. Qed.
Print Assumptions C33_cell_is_fold_of_its_operations.

(* Counter: after any history - registrations of it (and of anything else) anywhere, any number of
   times - Get returns the sum of its increments since start (mod 2^64, the width of the cell);
   absent only if it was never registered nor incremented. *)
Theorem C33_get_counter : forall name ops,
  forallb (uses_as KCounter name) ops = true ->
  mget (fst (mrun false minit ops)) name =
  if reg_or_used name ops then Some (w64 (csum name ops)) else None.
Proof. exact get_counter. Qed.
Print Assumptions C33_get_counter.

(* ... which never decreases along a history (and is the plain sum below 2^64) *)
Theorem C33_counter_monotone : forall name a b,
  forallb (uses_as KCounter name) (a ++ b) = true -> csum name a <= csum name (a ++ b).
Proof. exact counter_monotone. Qed.
Print Assumptions C33_counter_monotone.
Theorem C33_counter_no_wrap : forall v, 0 <= v < 18446744073709551616 -> w64 v = v.
Proof. intros v H. unfold w64. apply Z.mod_small. exact H. Qed.
Print Assumptions C33_counter_no_wrap.

(* Gauge: the last value set (0 when only registered so far). *)
Theorem C33_get_gauge : forall name ops,
  forallb (uses_as KGauge name) ops = true ->
  mget (fst (mrun false minit ops)) name =
  match lastset s_gauge name ops None with
  | Some x => Some x
  | None => if reg_or_used name ops then Some 0 else None
  end.
Proof. exact get_gauge. Qed.
Print Assumptions C33_get_gauge.

(* Up-down counter: ups minus downs. *)
Theorem C33_get_updown : forall name ops,
  forallb (uses_as KUpDown name) ops = true ->
  mget (fst (mrun false minit ops)) name =
  if reg_or_used name ops then Some (udsum name ops) else None.
Proof. exact get_updown. Qed.
Print Assumptions C33_get_updown.

(* Interleavings, 1 (Model/MetricsConc.v): one value cell under goroutines whose Increment / Count / Up /
   Down are the code's atomic steps - Load (hit or miss), LoadOrStore of a zero cell RETURNING THE
   WINNER, Add on the cell held - interleaved with Register (LoadOrStore) and Get by ANY schedule.
   At every point: value of the cell + increments not yet applied = all increments; hence when all
   goroutines are done the cell holds the sum of everything every goroutine added, also when their
   first uses of a fresh, unregistered name collide. *)
Theorem C33_interleaving_conservation : forall progs sched,
  let cf := run false (start progs) sched in
  cval (cell cf) + outstanding (threads cf) = total progs.
Proof. exact conservation. Qed.
Print Assumptions C33_interleaving_conservation.
Theorem C33_no_increment_lost : forall progs sched,
  finished (run false (start progs) sched) = true ->
  cval (cell (run false (start progs) sched)) = total progs.
Proof. exact no_increment_lost. Qed.
Print Assumptions C33_no_increment_lost.
(* The variant whose slow path publishes a pre-loaded fresh cell with LoadOrStore and ignores whether
   it was stored loses an increment when two first uses collide (1 + 1 = 1) - and only then. *)
Theorem C33_ignore_loaded_refuted :
  exists progs sched,
    finished (run true (start progs) sched) = true /\
    cval (cell (run true (start progs) sched)) <> total progs.
Proof. exact ignore_loaded_refuted. Qed.
Print Assumptions C33_ignore_loaded_refuted.

(* Interleavings, 2: with every operation acting atomically on its own cell (1, and cells of different
   names / kinds never disturb each other: C33_cell_is_fold_of_its_operations), every interleaving of
   the goroutines' operation lists is a permutation of their concatenation and leaves the same
   counter / up-down value: the sum over all goroutines, whatever the order of increments and
   (re-)registrations. *)
From Coq Require Import Sorting.Permutation.
Theorem C33_interleaved_counter : forall name (threads : list (list mop)) ops,
  Permutation (concat threads) ops ->
  forallb (uses_as KCounter name) (concat threads) = true ->
  mget (fst (mrun false minit ops)) name =
  if reg_or_used name (concat threads) then Some (w64 (csum name (concat threads))) else None.
Proof. exact interleaved_counter. Qed.
Print Assumptions C33_interleaved_counter.
Theorem C33_interleaved_updown : forall name (threads : list (list mop)) ops,
  Permutation (concat threads) ops ->
  forallb (uses_as KUpDown name) (concat threads) = true ->
  mget (fst (mrun false minit ops)) name =
  if reg_or_used name (concat threads) then Some (udsum name (concat threads)) else None.
Proof. exact interleaved_updown. Qed.
Print Assumptions C33_interleaved_updown.

(* The dynsampler metrics recorder (sample/sample.go) feeds the sampler's cumulative counters into the
   store as deltas to the last value seen. With the snapshot taken under the recorder's mutex, for
   every interleaving of any number of goroutines with any growth of the sampler's counters: the
   store is the last applied snapshot minus the value at registration, every Count() argument is
   >= 0 (the counter never decreases), and whenever nobody is inside RecordMetrics the store shows
   exactly the latest snapshot taken. *)
Theorem C33_recorder_follows_source : forall s0 evs,
  let c := rrun false (rinit s0) evs in
  store c = last c - s0 /\ Forall (fun d => 0 <= d) (deltas c) /\ last c <= latest c /\ latest c <= src c.
Proof. exact recorder_follows_source. Qed.
Print Assumptions C33_recorder_follows_source.
Theorem C33_recorder_store_is_latest_snapshot : forall s0 evs,
  let c := rrun false (rinit s0) evs in
  quiescent c = true -> store c = latest c - s0.
Proof. exact recorder_store_is_latest_snapshot. Qed.
Print Assumptions C33_recorder_store_is_latest_snapshot.
(* Snapshot taken before the mutex: a stale snapshot is applied after a newer one, Count(name, -2),
   the counter runs backwards (7 -> 5) and stays behind the sampler. *)
Theorem C33_recorder_snapshot_before_lock_refuted :
  exists evs,
    let c := rrun true (rinit 0) evs in
    quiescent c = true /\ store c <> latest c - 0 /\ In (-2) (deltas c) /\
    store (rrun true (rinit 0) (firstn 6 evs)) = 7 /\ store c = 5.
Proof.
  exists [RGrow 5; RStep 1; RGrow 2; RStep 2; RStep 2; RStep 2; RStep 1; RStep 1]%N.
  vm_compute. repeat split; try reflexivity; try discriminate. left. reflexivity.
Qed.
Print Assumptions C33_recorder_snapshot_before_lock_refuted.

(* The pinned code: registering a counter again resets it (2 -> 0). *)
Theorem C33_pinned_code_reregister_resets :
  snd (mrun true minit [MReg 1 KCounter; MInc 1; MInc 1; MGet 1; MReg 1 KCounter; MGet 1; MInc 1; MGet 1]%N) =
    [Some 2; Some 0; Some 1].
Proof. exact reregister_refuted. Qed.
Print Assumptions C33_pinned_code_reregister_resets.

(* Non-vacuity: lazily re-registering components, interleaved kinds and names. *)
Example C33_interleaving_nonvacuous :
  finished (run false (start [[CAdd 1; CGet]; [CAdd 1]; [CReg; CAdd 5]]) [0; 1; 2; 0; 1; 2; 2; 0; 1; 2; 0]%nat) = true /\
  cell (run false (start [[CAdd 1; CGet]; [CAdd 1]; [CReg; CAdd 5]]) [0; 1; 2; 0; 1; 2; 2; 0; 1; 2; 0]%nat) = Some 7.
Proof. vm_compute. split; reflexivity. Qed.

Example C33_nonvacuous :
  let ops := [MReg 1 KCounter; MInc 1; MCount 1 41; MReg 2 KGauge; MReg 1 KCounter; MGaugeSet 2 7;
              MUp 3; MReg 3 KUpDown; MUp 3; MDown 3; MReg 2 KGauge; MInc 1; MStore 9 5;
              MGet 1; MGet 2; MGet 3; MGet 9; MGet 4]%N in
  forallb (uses_as KCounter 1) ops = true /\ forallb (uses_as KGauge 2) ops = true /\
  forallb (uses_as KUpDown 3) ops = true /\
  snd (mrun false minit ops) = [Some 43; Some 7; Some 1; Some 5; None].
Proof. vm_compute. repeat split; reflexivity. Qed.
