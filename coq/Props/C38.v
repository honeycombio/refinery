(* C38 — config converter preserves valid v1 settings   (PARTIAL: see below)
   Statements; proofs in Proofs/Convert.v: each theorem is closed by a lemma from there, or by a few lines that
   unfold the policy of Model/Convert.v.
   Claimed here: the table-driven relocation of v1 settings to their v2 place; per setting, the converter's
   write-or-leave-out policy by valuetype composed with the v2 loader's zero-is-unset policy; the rules conversion
   for sections with integer parameters, field lists and RulesBasedSampler rule trees (as opaque ordered rule
   texts). NOT covered by theorems: the text of the value transforms themselves (memory size and duration
   rendering, float formatting are compared end to end only), maps (v2-only), the v1 Logger -> Logger.Type value
   renaming (known finding), the helm conversion; "passes v2 validation" is established by running the real
   validator, not by a theorem. *)
From Refinery Require Import Lib.Base Gen.GenC38 Model.Convert Proofs.Convert.
Local Open Scope string_scope.

(* For every table with distinct v2 paths and every v1 file: a v1 setting named by the table is found at its v2
   location with the same value (and a setting the v1 file does not set is not set in v2 either). *)
Theorem C38_config_setting_preserved_partial : forall tbl c k p,
  NoDup (map snd tbl) -> In (k, p) tbl -> slookup p (convert_cfg tbl c) = slookup k c.
Proof. exact convert_cfg_preserves. Qed.
Print Assumptions C38_config_setting_preserved_partial.

(* the table generated from config/metadata/configMeta.yaml has distinct v2 paths, and the converter source still
   has the shape the model copies (renamed keys, convertible sampler types, default sampler type, v1 files go
   through the template) *)
Theorem C38_generated_table_ok : NoDup (map snd gen_table) /\ gen_shape_ok = true.
Proof. exact (conj gen_table_v2_paths_distinct gen_shape_holds). Qed.
Print Assumptions C38_generated_table_ok.

(* Rules: for every v1 rules file (top level + any sections with distinct names): the top level becomes
   __default__; every section with a Sampler key becomes the destination of the same name; a section without a
   Sampler key produces no destination (v1 itself ignored such sections and used the default sampler). *)
Theorem C38_rules_sections_preserved_partial : forall dflt ds,
  NoDup (map se_name ds) -> ~ In "__default__" (map se_name ds) ->
  find_section "__default__" (convert_rules dflt ds) = Some (conv_section "__default__" dflt) /\
  (forall s, In s ds -> has_sampler s = true ->
     find_section (se_name s) (convert_rules dflt ds) = Some (conv_section (se_name s) s)) /\
  (forall s, In s ds -> has_sampler s = false -> find_section (se_name s) (convert_rules dflt ds) = None).
Proof.
  intros dflt ds Hnd Hd. split; [reflexivity|].
  split; intros s Hin Hs; rewrite (convert_rules_find dflt ds s Hnd Hd Hin), Hs; reflexivity.
Qed.
Print Assumptions C38_rules_sections_preserved_partial.

(* ... and within a section the sampler type, the field list and every parameter are kept; ClearFrequencySec n
   becomes ClearFrequency n s and AdjustmentInterval n becomes n s (durations in ns) *)
Theorem C38_rules_parameters_preserved_partial : forall name s,
  se_type (conv_section name s) = (if String.eqb (se_type s) "" then "DeterministicSampler" else se_type s) /\
  se_fields (conv_section name s) = se_fields s /\
  se_rules (conv_section name s) = map conv_rule (se_rules s) /\
  (forall k v, In (k, v) (se_params s) -> k <> "ClearFrequencySec" -> k <> "AdjustmentInterval" ->
     In (k, v) (se_params (conv_section name s))) /\
  (forall v, In ("ClearFrequencySec", v) (se_params s) -> In ("ClearFrequency", (v * second)%Z) (se_params (conv_section name s))) /\
  (forall v, In ("AdjustmentInterval", v) (se_params s) -> In ("AdjustmentInterval", (v * second)%Z) (se_params (conv_section name s))).
Proof. intros name s. exact (conj eq_refl (conj eq_refl (conj eq_refl (conv_params_spec (se_params s))))). Qed.
Print Assumptions C38_rules_parameters_preserved_partial.

(* a sampler nested in a rule of a RulesBasedSampler keeps its type and parameters under the same fix-ups
   (nested ClearFrequencySec n becomes ClearFrequency n s, nested numeric AdjustmentInterval n becomes n s) *)
Theorem C38_nested_sampler_preserved_partial : forall r,
  ru_text (conv_rule r) = ru_text r /\ ru_sub_type (conv_rule r) = ru_sub_type r /\
  (forall k v, In (k, v) (ru_sub_params r) -> k <> "ClearFrequencySec" -> k <> "AdjustmentInterval" ->
     In (k, v) (ru_sub_params (conv_rule r))) /\
  (forall v, In ("ClearFrequencySec", v) (ru_sub_params r) -> In ("ClearFrequency", (v * second)%Z) (ru_sub_params (conv_rule r))) /\
  (forall v, In ("AdjustmentInterval", v) (ru_sub_params r) -> In ("AdjustmentInterval", (v * second)%Z) (ru_sub_params (conv_rule r))).
Proof. intros r. exact (conj eq_refl (conj eq_refl (conv_params_spec (ru_sub_params r)))). Qed.
Print Assumptions C38_nested_sampler_preserved_partial.

(* One setting through converter and loader (valuetype policy of tools/convert/helpers.go, zero-is-unset policy
   of the v2 loader): the effective v2 value is the v1 value, or the v1 value is a zero that the v2 field cannot
   hold (non-pointer field: the v2 default applies), or the converter left it out (then the v2 default applies). *)
Theorem C38_setting_value_cases_partial : forall s,
  loaded s = si_v1 s \/
  (emits s = true /\ zero_text (si_v1 s) = true /\ si_ptr s = false /\ loaded s = si_sdefault s) \/
  (emits s = false /\ loaded s = si_sdefault s).
Proof.
  intros s. unfold loaded. destruct (emits s); [|auto]. destruct (zero_text (si_v1 s)); [|auto].
  destruct (si_ptr s); cbn; tauto.
Qed.
Print Assumptions C38_setting_value_cases_partial.

(* explicit false / zero is not lost where v2 can hold it; non-zero written values are kept; a nondefault setting
   is only left out when it prints like the documented default *)
Theorem C38_explicit_zero_kept_partial : forall s,
  si_vt s = "nondefault" -> si_text s <> si_mdefault s -> si_ptr s = true -> loaded s = si_v1 s.
Proof.
  intros s Hv Hd Hp. apply String.eqb_neq in Hd. unfold loaded. rewrite (emits_nondefault s Hv), Hd, Hp.
  cbn [negb]. rewrite andb_false_r. reflexivity.
Qed.
Print Assumptions C38_explicit_zero_kept_partial.

Theorem C38_written_nonzero_kept_partial : forall s, emits s = true -> zero_text (si_v1 s) = false -> loaded s = si_v1 s.
Proof. intros s E Hz. unfold loaded. rewrite E, Hz. reflexivity. Qed.
Print Assumptions C38_written_nonzero_kept_partial.

Theorem C38_nondefault_left_out_only_at_default_partial : forall s,
  si_vt s = "nondefault" -> emits s = false -> si_text s = si_mdefault s.
Proof. intros s Hv E. rewrite (emits_nondefault s Hv) in E. apply negb_false_iff, String.eqb_eq in E. exact E. Qed.
Print Assumptions C38_nondefault_left_out_only_at_default_partial.

(* Non-vacuity: a rules file whose top level has ClearFrequencySec, a section with AdjustmentInterval and a section
   without a Sampler key (it produces no destination), and one v1 setting that the generated table relocates *)
Example C38_nonvacuous :
  let d := {| se_name := ""; se_type := "DynamicSampler"; se_params := [("SampleRate", 10%Z); ("ClearFrequencySec", 45%Z)]; se_fields := ["a"]; se_rules := [] |} in
  let s1 := {| se_name := "ds1"; se_type := "EMADynamicSampler"; se_params := [("GoalSampleRate", 5%Z); ("AdjustmentInterval", 15%Z)]; se_fields := ["b"; "c"]; se_rules := [] |} in
  let s2 := {| se_name := "ds2"; se_type := ""; se_params := [("SampleRate", 7%Z)]; se_fields := []; se_rules := [] |} in
  map (fun s => (se_name s, se_type s, se_params s)) (convert_rules d [s1; s2]) =
    [("__default__", "DynamicSampler", [("SampleRate", 10%Z); ("ClearFrequency", 45000000000%Z)]);
     ("ds1", "EMADynamicSampler", [("GoalSampleRate", 5%Z); ("AdjustmentInterval", 15000000000%Z)])] /\
  slookup "GRPCServerParameters.ListenAddr" (convert_cfg gen_table [("GRPCListenAddr", "0.0.0.0:4317"); ("PrometheusMetrics.MetricsListenAddr", "localhost:2112")]) = Some "0.0.0.0:4317".
Proof. vm_compute. split; reflexivity. Qed.
