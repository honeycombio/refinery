(* C07 — memory-pressure ejection decides traces rather than discarding them.
   Statements; the proofs rest on Proofs/CollectorTime.v: each theorem is closed by a lemma from there
   or by a few lines of its own.  sort.Slice is an ideal unstable sort: the order in which the loop
   visited the traces is an oracle [ch], the theorems hold for every order the code could have
   produced (every resolution of impact ties). *)
From Refinery Require Import Lib.Base Model.Collector Proofs.CollectorRef Proofs.CollectorTime Gen.GenC01.

(* checkAlloc: ejection is triggered iff MaxAlloc <> 0 and heap >= MaxAlloc; every worker is asked
   to release share = floor((heap - MaxAlloc) / workers) bytes. *)
Theorem C07_trigger : forall alloc maxalloc : Z,
  alloc_triggers alloc maxalloc = true <-> maxalloc <> 0 /\ maxalloc <= alloc.
Proof.
  intros alloc maxalloc. unfold alloc_triggers. rewrite negb_true_iff, orb_false_iff, Z.eqb_neq, Z.ltb_ge. tauto.
Qed.
Print Assumptions C07_trigger.

Theorem C07_share : forall alloc maxalloc n : Z,
  0 < n -> maxalloc <= alloc ->
  0 <= alloc_share alloc maxalloc n /\
  n * alloc_share alloc maxalloc n <= alloc - maxalloc < n * (alloc_share alloc maxalloc n + 1).
Proof.
  intros alloc maxalloc n Hn Hle. unfold alloc_share. rewrite Z.quot_div_nonneg by lia.
  pose proof (Z.mul_div_le (alloc - maxalloc) n Hn).
  pose proof (Z.mul_succ_div_gt (alloc - maxalloc) n Hn).
  pose proof (Z.div_pos (alloc - maxalloc) n ltac:(lia) Hn). lia.
Qed.
Print Assumptions C07_share.

(* sendTracesEarly(bytes).  In every ejection the code can perform: the ejected traces [l] are taken
   from the buffer and leave it; each is at least as heavy (estimated impact) as every trace that
   stays; the loop stops only when the buffer is empty or the released DataSize exceeds the share,
   and (for a non-negative share) not later: the DataSize released before the last ejected trace did
   not exceed it; a non-empty buffer gives up at least one trace; traces not ejected are untouched. *)
Theorem C07_eject_heaviest_first_until_share :
  forall (sampler : N -> list span -> bool) (dry : bool) (w : wstate) (bytes : Z) (ch : list N) (w' : wstate) (evs : list ev),
  step_eject sampler dry w bytes ch = Some (w', evs) ->
  exists l, map fst l = ch /\
  w_buf w' = remove_all ch (w_buf w) /\
  (forall t tr, In (t, tr) l -> alookup t (w_buf w) = Some tr /\
      forall kv, In kv (w_buf w') ->
        trace_impact (eject_tt (w_cfg w)) (snd kv) <= trace_impact (eject_tt (w_cfg w)) tr) /\
  (w_buf w' = [] \/ bytes < sum_sizes l) /\
  (0 <= bytes -> l = [] \/ sum_sizes (removelast l) <= bytes) /\
  (w_buf w <> [] -> ch <> []) /\
  (forall t, ~ In t ch -> alookup t (w_buf w') = alookup t (w_buf w)).
Proof. exact eject_spec. Qed.
Print Assumptions C07_eject_heaviest_first_until_share.

(* Decided exactly as if timed out: deciding a list of traces with the ejection reason or with the
   tick's reason ladder gives the same state (same sampler calls on the same spans, same decision
   records, traces removed) and the same forwarded spans; only the reason differs ... *)
Theorem C07_decided_like_a_timeout :
  forall (sampler : N -> list span -> bool) (dry : bool) (w : wstate) (rf1 rf2 : trace -> N) (l : list (N * trace)),
  fst (decide_list sampler dry w rf1 l) = fst (decide_list sampler dry w rf2 l) /\
  map proj (snd (decide_list sampler dry w rf1 l)) = map proj (snd (decide_list sampler dry w rf2 l)).
Proof.
  intros sampler dry w rf1 rf2 l. rewrite !decide_list_eq. split; [reflexivity|]. cbn [snd].
  rewrite !flat_map_concat_map, !concat_map, !map_map. f_equal. apply map_ext. intros [t tr].
  unfold decide_one. cbn [snd]. destruct (fw dry _); [rewrite !map_map|]; reflexivity.
Qed.
Print Assumptions C07_decided_like_a_timeout.

(* ... and the reason reported for every span forwarded by an ejection is ejected_memsize. *)
Theorem C07_reason_is_ejected_memsize :
  forall (sampler : N -> list span -> bool) (dry : bool) (w : wstate) (bytes : Z) (ch : list N) (w' : wstate)
         (evs : list ev) (t s r : N),
  step_eject sampler dry w bytes ch = Some (w', evs) -> In (t, s, r) evs -> r = R_eject /\ In t ch.
Proof.
  intros sampler dry w bytes ch w' evs t s r H Hin.
  destruct (step_eject_inv _ _ _ _ _ _ _ H) as [l [T [_ [_ ->]]]].
  apply decide_list_events in Hin. destruct Hin as [tr [Hl [Hr _]]]. split; [exact Hr|].
  rewrite <- (proj1 (eject_loop_spec _ _ _ _ _ _ T)). exact (in_map fst _ _ Hl).
Qed.
Print Assumptions C07_reason_is_ejected_memsize.

(* No span of an ejected trace is lost: ejection is a sequence of Decide steps of the abstract
   machine, so C02_no_span_lost / C01_single_decision cover histories with ejections at any point
   (Props/C01.v, Props/C02.v quantify over op lists containing OEject). *)

Example C07_code_shape :
  eject_sorts_heaviest_first && eject_stop_rule && alloc_trigger_rule && alloc_share_rule && span_impact_formula &&
  collect_send_early_branch && md_records_decision = true.
Proof. vm_compute. reflexivity. Qed.
Example C07_constants : cache_impact_factor = 4 /\ eject_trace_timeout_fallback = trace_timeout_fallback.
Proof. vm_compute. split; reflexivity. Qed.

(* Non-vacuity: three traces of sizes 30 / 20 / 10 (ages give impacts 30 / 40 / 10); share 45. *)
Definition ex_sp (t i : N) (size age : Z) : span :=
  {| s_id := i; s_tid := t; s_root := false; s_cls := 0; s_size := size; s_age := age |}.
Definition ex_cfg : cfg := {| c_ver := 0; c_tt := 100; c_sd := 10; c_sl := 0; c_me := 0 |}.
Definition ex_w : wstate :=
  fst (run (fun _ _ => true) false (winit ex_cfg)
           [OSpan 0 (ex_sp 1 1 30 0); OSpan 0 (ex_sp 2 2 20 30); OSpan 0 (ex_sp 3 3 10 0)]).
Example C07_nonvacuous :
  option_map snd (step_eject (fun _ _ => true) false ex_w 45 [2%N; 1%N]) = Some [(2, 2, R_eject); (1, 1, R_eject)]%N /\
  option_map (fun r => akeys (w_buf (fst r))) (step_eject (fun _ _ => true) false ex_w 45 [2%N; 1%N]) = Some [3%N] /\
  step_eject (fun _ _ => true) false ex_w 45 [1%N; 2%N] = None /\       (* not heaviest first *)
  step_eject (fun _ _ => true) false ex_w 45 [2%N] = None /\            (* stopped too early *)
  step_eject (fun _ _ => true) false ex_w 45 [2%N; 1%N; 3%N] = None.    (* went on too long *)
Proof. vm_compute. repeat split; reflexivity. Qed.
