(* C04 — forwarded sample rates compose the client and Refinery rates.
   Statements; proofs in Proofs/Rates.v: each theorem is closed by a lemma from there, the last by two.
   [dec] is the trace sampler and [sdec] stress relief (arbitrary functions of the trace id: every sampler
   type, configuration and rate); [step] follows processSpan / makeDecision / send / sendTraces /
   dealWithSentTrace / ProcessSpanImmediately / mergeTraceAndSpanSampleRates; [inv] holds in every
   reachable state (C04_invariant_reachable).
   From Proofs/Rates.v: [d_rate], [d_keep] read a sampler's answer (rate, keep, reason); [maxone] is the floor
   at 1 of the client's rate; [rate_ok o sp R] says that the output o carries the rates of span sp under the
   rate R; [from_decision tid R]: R is the rate of a keep decision for tid; [source s o sp]: sp is the span
   of the operation o, or a buffered span when o is [Decide]; [inv]: every recorded rate comes from a keep
   decision and every buffered span sits under its own trace id. *)
From Refinery Require Import Lib.Base Gen.GenC04 Model.Rates Proofs.Rates.

(* General form.  Outside dry run, every span forwarded by any operation (a decision of all buffered
   traces, a late span, a stress-relief span) belongs to the operation's span / a buffered span and carries
   SampleRate = max(1, client rate) * R (uint64 arithmetic), meta.refinery.final_sample_rate = that product
   and meta.refinery.original_sample_rate = the client rate (absent iff 0), where R is the rate of a KEEP
   decision made for that span's trace by the trace sampler or by stress relief. *)
Theorem C04_forwarded_rates :
  forall dec sdec s o out_,
  inv dec sdec s -> c_dry (cf s) = false -> In out_ (snd (step dec sdec s o)) ->
  exists sp R, source s o sp /\ o_sid out_ = s_id sp /\ from_decision dec sdec (s_tid sp) R /\ rate_ok out_ sp R.
Proof. exact forwarded_rates. Qed.
Print Assumptions C04_forwarded_rates.

(* Which rate: on-time spans use the rate the trace sampler returned for the trace ... *)
Theorem C04_ontime_uses_trace_rate :
  forall dec sdec s out_,
  inv dec sdec s -> c_dry (cf s) = false -> In out_ (snd (step dec sdec s Decide)) ->
  exists tid tr sp, In (tid, tr) (buf s) /\ In sp (t_spans tr) /\ o_sid out_ = s_id sp /\
                    d_keep (dec tid) = true /\ rate_ok out_ sp (d_rate (dec tid)).
Proof. exact ontime_uses_sampler_rate. Qed.
Print Assumptions C04_ontime_uses_trace_rate.

(* ... late spans the rate recorded with the decision (and only when the trace is not also recorded dropped) ... *)
Theorem C04_late_uses_recorded_rate :
  forall dec sdec s sp out_,
  inv dec sdec s -> c_dry (cf s) = false -> In out_ (snd (step dec sdec s (Span sp))) ->
  exists r, alookup (s_tid sp) (kept s) = Some r /\ mem_N (s_tid sp) (dropped s) = false /\
            o_sid out_ = s_id sp /\ rate_ok out_ sp (r_rate r).
Proof. exact late_uses_recorded_rate. Qed.
Print Assumptions C04_late_uses_recorded_rate.

(* ... and stress-relief spans the stress-relief rate when no decision is on record, the recorded one otherwise. *)
Theorem C04_stress_uses_stress_rate :
  forall dec sdec s sp out_,
  inv dec sdec s -> c_dry (cf s) = false -> In out_ (snd (step dec sdec s (Stress sp))) ->
  o_sid out_ = s_id sp /\ o_stressed out_ = true /\
  ((alookup (s_tid sp) (kept s) = None /\ d_keep (sdec (s_tid sp)) = true /\ rate_ok out_ sp (d_rate (sdec (s_tid sp)))) \/
   (exists r, alookup (s_tid sp) (kept s) = Some r /\ rate_ok out_ sp (r_rate r))).
Proof. exact stress_uses_stress_rate. Qed.
Print Assumptions C04_stress_uses_stress_rate.

(* The recorded rate IS the decision's rate: the record does not narrow it (true because the source stores
   a uint; with the uint32 of the pinned tree this lemma - and everything above - fails). *)
Theorem C04_record_keeps_full_rate : forall r, store_rate r = r.
Proof. exact store_rate_id. Qed.
Print Assumptions C04_record_keeps_full_rate.

(* Within the property's ranges (client rate < 2^31, trace rate in [1, 2^32)) nothing wraps: the forwarded
   rate is the exact product, at least 1, and the final_sample_rate field is that number. *)
Theorem C04_exact_product :
  forall o sp R, (s_rate sp < 2147483648)%N -> (1 <= R < two32)%N -> rate_ok o sp R ->
  o_rate o = (maxone (s_rate sp) * R)%N /\ o_final o = Z.of_N (o_rate o) /\ (1 <= o_rate o)%N /\ o_orig o = s_rate sp.
Proof. exact rate_exact. Qed.
Print Assumptions C04_exact_product.

Theorem C04_invariant_reachable : forall dec sdec c ops, inv dec sdec (fst (run dec sdec (init c) ops)).
Proof. intros dec sdec c ops. apply run_inv, inv_init. Qed.
Print Assumptions C04_invariant_reachable.

(* Non-vacuity: stress relief keeps trace 7 at rate 2^32; its first span and a later span both carry
   3 * 2^32; trace 1 is kept by the sampler at rate 10 and a late span with no client rate carries 10. *)
Example C04_nonvacuous :
  let dec := fun t : N => if N.eqb t 1 then (10%N, true, "det"%string) else (1%N, true, EmptyString) in
  let sdec := fun t : N => (4294967296%N, true, "stress"%string) in
  let c0 := {| c_dry := false; c_reason := false; c_spancount := false; c_counts := false; c_hostmeta := false; c_attrs := [] |} in
  let sp i t r := {| s_id := i; s_tid := t; s_rate := r; s_root := false; s_ann := 0 |} in
  map (map (fun o => (o_sid o, o_rate o, o_final o, o_orig o)))
      (snd (run dec sdec (init c0) [Stress (sp 1 7 3); Stress (sp 2 7 3); Span (sp 3 1 2); Decide; Span (sp 4 1 0)]%N)) =
  [[(1%N, 12884901888%N, 12884901888%Z, 3%N)]; [(2%N, 12884901888%N, 12884901888%Z, 3%N)]; [];
   [(3%N, 20%N, 20%Z, 2%N)]; [(4%N, 10%N, 10%Z, 0%N)]].
Proof. vm_compute. reflexivity. Qed.
