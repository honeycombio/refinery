(* C12 — sampler state is shared across workers and isolated between definitions.
   Statements; each theorem is closed by a lemma of Proofs/Registry.v or by a few lines
   instantiating one; the finite checks (what the translator found, the two concrete refutations,
   the example) are evaluated in place.
   [flog finit ops] is the log (generation, registry key, instance id) of every dynsampler
   creation request in a history of creations (any worker, any order, top-level or downstream),
   ClearDynsamplers and membership changes; [e_gen], [e_key], [e_id] are the parts of an entry.
   On worker histories (Proofs/Registry.v): [wstate_after s ops] is the state ops lead to,
   [no_reload ops] says that ops hold no configuration reload, [no_worker_reload w ops] that
   worker w handles no reload signal; [swap_cfg], [swap_history] are the scenario of
   C12_signal_before_clear_refuted. *)
From Refinery Require Import Lib.Base Lib.Strs_samp Model.Registry Proofs.Registry.
From Refinery Require Gen.GenC12.
From Coq Require Import Permutation.

(* the translator found: the key is built from the scope marker, the quoted prefix, the type, the
   WHOLE configuration (FieldList cleared) and the quoted sorted field list, in all five arms;
   the registry looks up before creating; Clear empties it; the worker-local cache and its reload;
   and the exact field lists of the five configuration structs (a new tuning parameter changes
   [param_names] and must be covered by the key, which it is because the key takes the struct) *)
Theorem C12_source_shape :
  GenC12.key_format_whole = true /\ GenC12.key_format_legacy = false /\
  length GenC12.key_calls_pass_level_and_prefix = 5%nat /\
  GenC12.registry_lookup_or_create = true /\ GenC12.clear_empties_registry = true /\
  GenC12.downstream_prefix_shape = true /\ GenC12.downstream_marked = true /\
  GenC12.toplevel_marked = true /\ GenC12.worker_cache_shape = true /\
  GenC12.worker_reload_clears_cache = true /\
  GenC12.reload_clear_before_signal = true /\ GenC12.reload_signal_before_clear = false /\
  param_names 3 = ["SampleRate"; "ClearFrequency"; "MaxKeys"; "UseTraceLength"]%string /\
  param_names 4 = ["GoalSampleRate"; "AdjustmentInterval"; "Weight"; "AgeOutValue"; "BurstMultiple";
                   "BurstDetectionDelay"; "MaxKeys"; "UseTraceLength"]%string /\
  param_names 5 = ["GoalThroughputPerSec"; "UseClusterSize"; "InitialSampleRate"; "AdjustmentInterval";
                   "Weight"; "AgeOutValue"; "BurstMultiple"; "BurstDetectionDelay"; "MaxKeys";
                   "UseTraceLength"]%string /\
  param_names 6 = ["UpdateFrequency"; "LookbackFrequency"; "GoalThroughputPerSec"; "UseClusterSize";
                   "MaxKeys"; "UseTraceLength"]%string /\
  param_names 7 = ["GoalThroughputPerSec"; "UseClusterSize"; "ClearFrequency"; "MaxKeys";
                   "UseTraceLength"]%string.
Proof.
  (* by conversion on Gen/GenC12.v: if the source changes so that one of these values is extracted
     differently, [reflexivity] fails here *)
  repeat split; reflexivity.
Qed.
Print Assumptions C12_source_shape.

(* All histories: two creation requests got the same instance exactly when they were made in the
   same registry generation with the same key.  The worker does not occur in the statement:
   whichever worker asks, in whatever order, the answer is the same. *)
Theorem C12_shared_iff_same_key : forall ops e1 e2,
  In e1 (flog finit ops) -> In e2 (flog finit ops) ->
  (e_id e1 = e_id e2 <-> e_gen e1 = e_gen e2 /\ e_key e1 = e_key e2).
Proof. exact shared_iff_same_key. Qed.
Print Assumptions C12_shared_iff_same_key.

(* and the key of the source as it is now is equal exactly for: same level (top-level / downstream),
   same environment or dataset name, same sampler type, every configuration parameter equal, and
   the same fields (in any order) *)
Theorem C12_same_key_iff_identical : forall sc1 n1 d1 sc2 n2 d2,
  key_of sc1 n1 d1 = key_of sc2 n2 d2 <->
  sc1 = sc2 /\ n1 = n2 /\ dd_type d1 = dd_type d2 /\ dd_params d1 = dd_params d2 /\
  Permutation (dd_fields d1) (dd_fields d2).
Proof.
  intros sc1 n1 d1 sc2 n2 d2. rewrite <- ssort_eq_perm. unfold key_of, key_whole. split.
  - intros [= Hs Hp Ht Hq Hf]. subst sc2. apply go_prefix_inj in Hp. auto.
  - intros [-> [-> [-> [-> ->]]]]. reflexivity.
Qed.
Print Assumptions C12_same_key_iff_identical.

(* a worker decides with the sampler it cached until it handles its own reload signal *)
Theorem C12_worker_cache_stable : forall ops s w name ids,
  cfind w name (w_cache s) = Some ids -> no_worker_reload w ops ->
  cfind w name (w_cache (wstate_after s ops)) = Some ids.
Proof. exact worker_cache_stable. Qed.
Print Assumptions C12_worker_cache_stable.

(* a second request for the same sampler key under the same rules (another worker, or the same one
   after its reload) gets exactly the same instances, rule by rule *)
Theorem C12_second_request_same_instances : forall s c name,
  snd (get_sampler (fst (get_sampler s c name)) c name) = snd (get_sampler s c name).
Proof. intros s c name. apply get_sampler_stable, reg_incl_refl. Qed.
Print Assumptions C12_second_request_same_instances.

(* Worker-count independence: within one registry generation (no reload in between), a worker
   that has to ask the factory gets exactly the instances the first asker got — whichever worker,
   whatever other lookups and worker reload signals happened meanwhile.  Together with
   C12_worker_cache_stable: all workers that have processed the latest reload decide with the
   same rate-tracking state for a given sampler key. *)
Theorem C12_workers_agree : forall s w1 w2 name ops,
  cfind w1 name (w_cache s) = None -> no_reload ops ->
  let s1 := fst (wstep s (WGet w1 name)) in
  let s2 := wstate_after s1 ops in
  cfind w2 name (w_cache s2) = None ->
  snd (wstep s2 (WGet w2 name)) = snd (wstep s (WGet w1 name)).
Proof. exact workers_agree. Qed.
Print Assumptions C12_workers_agree.

(* The collector's reload handler, in the order found in the source (ClearDynsamplers, then the
   reload signal to every worker — extracted from collect.go reloadConfigs): whatever the workers do
   between the handler's two steps and afterwards, any two workers that have run their reload branch
   and then need the sampler for a key get the same instances.  The proof computes the extracted
   order; with the steps swapped in the source it no longer compiles. *)
Theorem C12_after_reload_workers_agree : forall s c early mid1 mid2 w1 w2 name,
  no_reload early -> no_reload mid1 -> no_reload mid2 ->
  let s0 := wstate_after s (real_reload_schedule c early mid1) in
  let sA := fst (wstep s0 (WWorkerReload w1)) in
  let r1 := wstep sA (WGet w1 name) in
  let sB := fst (wstep (wstate_after (fst r1) mid2) (WWorkerReload w2)) in
  snd (wstep sB (WGet w2 name)) = snd r1.
Proof.
  intros s c early mid1 mid2 w1 w2 name. unfold real_reload_schedule.
  rewrite (eq_refl : GenC12.reload_clear_before_signal = true).
  (* only [no_reload mid2] is needed: nothing is asked of the state s0 the first worker starts from *)
  intros _ _. apply reloaded_workers_agree.
Qed.
Print Assumptions C12_after_reload_workers_agree.

(* With the order swapped (signals first, ClearDynsamplers last) the statement is false: a worker
   that runs its reload branch and re-creates its sampler between the two steps obtains the old
   generation's instance and keeps it (last two outputs: worker 0 on instance 0, worker 1 on
   instance 1), while the same worker activity under the real order ends with both on instance 1. *)
Theorem C12_signal_before_clear_refuted :
  let out := wrun {| w_f := finit; w_cfg := swap_cfg; w_cache := [] |} swap_history in
  nth 7 out [] = [Some 0%N] /\ nth 8 out [] = [Some 1%N] /\
  let ok := wrun {| w_f := finit; w_cfg := swap_cfg; w_cache := [] |}
                 ([WGet 0 (u "prod"); WGet 1 (u "prod")] ++
                  reload_schedule true swap_cfg [WGet 0 (u "prod")]
                                  [WWorkerReload 0; WGet 0 (u "prod"); WWorkerReload 1; WGet 1 (u "prod")] ++
                  [WGet 0 (u "prod"); WGet 1 (u "prod")]) in
  nth 8 ok [] = [Some 1%N] /\ nth 9 ok [] = [Some 1%N].
Proof. vm_compute. repeat split; reflexivity. Qed.
Print Assumptions C12_signal_before_clear_refuted.

(* The pinned tree's key ("%s:%s:%d:%v" of prefix, type, one rate, sorted fields) was not
   injective: definitions differing in MaxKeys / UseTraceLength, field lists ["a b"] vs ["a";"b"],
   and the top-level name "rules:prod:" vs the downstream samplers of "prod" collide; the key of the
   fixed source separates all three.  (Finding C12-key-ignores-tuning-parameters, fixed.) *)
Theorem C12_legacy_key_refuted :
  let d1 := {| dd_type := 3; dd_params := [10; 0; 500; 0]; dd_fields := [u "a"] |} in
  let d2 := {| dd_type := 3; dd_params := [10; 0; 7; 1]; dd_fields := [u "a"] |} in
  let d3 := {| dd_type := 3; dd_params := [10; 0; 500; 0]; dd_fields := [u "a b"] |} in
  let d4 := {| dd_type := 3; dd_params := [10; 0; 500; 0]; dd_fields := [u "a"; u "b"] |} in
  key_legacy Down (u "prod") d1 = key_legacy Down (u "prod") d2 /\ dd_params d1 <> dd_params d2 /\
  key_legacy Top (u "prod") d3 = key_legacy Top (u "prod") d4 /\
  key_legacy Top (u "rules:prod:") d1 = key_legacy Down (u "prod") d1 /\
  key_whole Down (u "prod") d1 <> key_whole Down (u "prod") d2 /\
  key_whole Top (u "prod") d3 <> key_whole Top (u "prod") d4 /\
  key_whole Top (u "rules:prod:") d1 <> key_whole Down (u "prod") d1.
Proof. vm_compute. repeat split; try reflexivity; discriminate. Qed.
Print Assumptions C12_legacy_key_refuted.

(* Non-vacuity: three workers, two environments, a rules sampler with two identical and one
   different downstream definition, a reload in the middle *)
Example C12_nonvacuous :
  let d := {| dd_type := 3; dd_params := [10; 0; 500; 0]; dd_fields := [u "a"; u "b"] |} in
  let d' := {| dd_type := 3; dd_params := [10; 0; 7; 0]; dd_fields := [u "b"; u "a"] |} in
  let dperm := {| dd_type := 3; dd_params := [10; 0; 500; 0]; dd_fields := [u "b"; u "a"] |} in
  let cfg : econfig := [(u "prod", ERules [Some d; Some d'; None; Some dperm]); (u "dev", EDyn d);
                        (u "__default__", EDet)] in
  wrun {| w_f := finit; w_cfg := cfg; w_cache := [] |}
       [WGet 0 (u "prod"); WGet 1 (u "prod"); WGet 2 (u "dev"); WGet 0 (u "other");
        WReload cfg; WGet 1 (u "prod"); WWorkerReload 1; WGet 1 (u "prod"); WGet 2 (u "prod")] =
  [[Some 0; Some 1; None; Some 0]%N; [Some 0; Some 1; None; Some 0]%N; [Some 2%N]; [];
   []; [Some 0; Some 1; None; Some 0]%N; []; [Some 3; Some 4; None; Some 3]%N; [Some 3; Some 4; None; Some 3]%N].
Proof. vm_compute. reflexivity. Qed.
