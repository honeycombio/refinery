(* C05 — dry run forwards every span with the would-be decision.
   Statements; proofs in Proofs/DryRun.v: each theorem is closed by a lemma from there, except those on
   the invariant: along a history by [run_invariant] of Proofs/Rates.v applied to the one-step lemmas,
   the initial one directly.  [dec] / [sdec] are the trace sampler and stress relief (arbitrary); [step] /
   [run] are the forwarding model of Model/Rates.v.
   [inv5] (Proofs/DryRun.v): the buffer has distinct trace ids, every buffered span sits under its own, and
   the decision store agrees with the trace sampler.  From Proofs/Rates.v: [d_keep] reads the keep flag of a
   sampler's answer, [maxone] floors a rate at 1, [source s o sp] says sp is the span of o or, for [Decide],
   a buffered span. *)
From Coq Require Import Permutation.
From Refinery Require Import Lib.Base Gen.GenC04 Model.Rates Model.DryRun Proofs.Rates Proofs.DryRun.

(* Exactly once.  For every history that stays in dry run (reloads may change everything else; stress-relief
   spans are treated below) and every schedule of spans, decisions and late spans: the spans forwarded so
   far together with the spans still buffered are exactly (as multisets) the spans handed to the collector —
   nothing is dropped, nothing is forwarded twice; after a final decision of the buffered traces every
   span has been forwarded. *)
Theorem C05_every_span_forwarded_once :
  forall dec sdec ops s,
  inv5 dec s -> c_dry (cf s) = true -> dry_history ops = true ->
  Permutation (all_sids (snd (run dec sdec s ops)) ++ buffered_sids (fst (run dec sdec s ops)))
              (buffered_sids s ++ span_ids ops).
Proof. exact dry_all_forwarded. Qed.
Print Assumptions C05_every_span_forwarded_once.

(* Marker and rate.  Every span forwarded by a non-stress operation in dry run (decision of the buffered
   traces, late span of a kept or of a dropped trace) carries meta.refinery.dryrun.kept = the trace sampler's
   decision for its trace, a sample rate equal to the client's up to "absent = 0 = 1", and no
   final_sample_rate. *)
Theorem C05_marker_and_rate :
  forall dec sdec s o x,
  inv5 dec s -> c_dry (cf s) = true -> is_stress o = false -> In x (snd (step dec sdec s o)) ->
  exists sp, source s o sp /\
             o_sid x = s_id sp /\ o_dry x = Some (Proofs.Rates.d_keep (dec (s_tid sp))) /\
             maxone (o_rate x) = maxone (s_rate sp) /\ o_final x = 0.
Proof. exact dry_marker_and_rate. Qed.
Print Assumptions C05_marker_and_rate.

(* The invariant used above is preserved along such histories, and holds initially. *)
Theorem C05_invariant_preserved :
  forall dec sdec ops s, inv5 dec s -> c_dry (cf s) = true -> dry_history ops = true ->
  inv5 dec (fst (run dec sdec s ops)) /\ c_dry (cf (fst (run dec sdec s ops))) = true.
Proof.
  intros dec sdec ops s Hinv Hdry.
  apply (run_invariant dec sdec (fun s' => inv5 dec s' /\ c_dry (cf s') = true) _ (step_dry_history dec sdec)).
  split; assumption.
Qed.
Print Assumptions C05_invariant_preserved.

(* DryRun is reloadable: the invariant is preserved by EVERY history without stress-relief spans, whatever
   the DryRun value (off, on, toggled by reloads), so the two theorems above hold from the moment a reload
   switches DryRun on: for every prefix [pre] (DryRun off or on), after [Reload c] with c_dry c = true, the
   state satisfies their hypotheses. *)
Theorem C05_invariant_any_history :
  forall dec sdec ops s, inv5 dec s -> forallb (fun o => negb (is_stress o)) ops = true ->
  inv5 dec (fst (run dec sdec s ops)).
Proof.
  intros dec sdec. apply (run_invariant dec sdec (inv5 dec)). intros s o H Ho.
  apply step_inv5; [exact H|]. apply negb_true_iff, Ho.
Qed.
Print Assumptions C05_invariant_any_history.

Theorem C05_invariant_initial : forall dec c, inv5 dec (init c).
Proof.
  intros dec c. split; [constructor|]. split; [intros tid tr []|]. split; [intros tid []|intros tid r [=]].
Qed.
Print Assumptions C05_invariant_initial.

(* The only spans not forwarded are stress-relief drops: a stress span never enters the buffer, carries no
   dry-run marker, and is withheld exactly when the trace is on record as dropped or, with no record, when
   stress relief decides to drop it. *)
Theorem C05_only_stress_relief_drops :
  forall dec sdec s sp,
  buf (fst (step dec sdec s (Stress sp))) = buf s /\
  (forall x, In x (snd (step dec sdec s (Stress sp))) -> o_sid x = s_id sp /\ o_dry x = None /\ o_stressed x = true) /\
  (snd (step dec sdec s (Stress sp)) = [] <->
     mem_N (s_tid sp) (dropped s) = true \/
     (alookup (s_tid sp) (kept s) = None /\ Proofs.Rates.d_keep (sdec (s_tid sp)) = false)).
Proof. exact stress_ignores_dry_run. Qed.
Print Assumptions C05_only_stress_relief_drops.

(* Non-vacuity: trace 1 would be dropped, trace 2 kept at rate 10; on-time, late-dropped and late-kept spans. *)
Example C05_nonvacuous :
  let dec := fun t : N => if N.eqb t 1 then (10%N, false, "drop"%string) else (10%N, true, "keep"%string) in
  let sdec := fun t : N => (1%N, true, EmptyString) in
  let c0 := {| c_dry := true; c_reason := false; c_spancount := false; c_counts := false; c_hostmeta := false; c_attrs := [] |} in
  let sp i t r := {| s_id := i; s_tid := t; s_rate := r; s_root := false; s_ann := 0 |} in
  let ops := [Span (sp 1 1 0); Span (sp 2 2 5); Decide; Span (sp 3 1 0); Span (sp 4 2 0)]%N in
  dry_history ops = true /\
  map (map (fun o => (o_sid o, o_rate o, o_dry o, o_dryrate o))) (snd (run dec sdec (init c0) ops)) =
  [[]; []; [(2, 5, Some true, Some 50); (1, 1, Some false, Some 10)]; [(3, 0, Some false, None)]; [(4, 1, Some true, Some 10)]]%N.
Proof. vm_compute. split; reflexivity. Qed.

(* Non-vacuity with a live reload: DryRun is off when the spans arrive, a reload switches it on, the decision
   then forwards both traces with the marker and the client's rate. *)
Example C05_nonvacuous_reload :
  let dec := fun t : N => if N.eqb t 1 then (10%N, false, "drop"%string) else (10%N, true, "keep"%string) in
  let sdec := fun t : N => (1%N, true, EmptyString) in
  let c0 := {| c_dry := false; c_reason := false; c_spancount := false; c_counts := false; c_hostmeta := false; c_attrs := [] |} in
  let c1 := {| c_dry := true; c_reason := false; c_spancount := false; c_counts := false; c_hostmeta := false; c_attrs := [] |} in
  let sp i t r := {| s_id := i; s_tid := t; s_rate := r; s_root := false; s_ann := 0 |} in
  map (map (fun o => (o_sid o, o_rate o, o_dry o, o_final o)))
      (snd (run dec sdec (init c0) [Span (sp 1 1 0); Span (sp 2 2 5); Reload c1; Decide]%N)) =
  [[]; []; []; [(2%N, 5%N, Some true, 0%Z); (1%N, 1%N, Some false, 0%Z)]].
Proof. vm_compute. reflexivity. Qed.
