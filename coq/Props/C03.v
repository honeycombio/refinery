(* C03 — trace decisions happen at the documented time.  Statements; proofs in
   Proofs/CollectorTime.v and Proofs/CollectorTicker.v: each theorem is closed by a lemma from there or
   by a few lines instantiating one.  The worker model is Model/Collector.v (processSpan deadlines,
   TakeExpiredTraces with the priority queue's pops as an oracle, the send-reason ladder). *)
From Refinery Require Import Lib.Base Model.Collector Proofs.CollectorRef Proofs.CollectorTime Proofs.CollectorTicker Gen.GenC01.

(* (a) The deadline.  A trace whose first span arrived at [first] and whose spans arrived at the
   instants of [l] (in order, under config c) has SendBy = the minimum of first + TraceTimeout',
   of arrival + SendDelay' for every root arrival, and of the arrival instant itself for every
   arrival that finds the trace above SpanLimit (act-fast: timeout 0, even if that span is the
   root).  TraceTimeout' / SendDelay' are the configured values or the code's fallbacks when 0. *)
Theorem C03_deadline_formula : forall (c : cfg) (first : Z) (l : list (Z * span)),
  t_sendby (fold_left (arrive c) l (new_trace c first)) = fold_left Z.min (cands c 0 l) (first + eff_tt c).
Proof. intros c first l. exact (sendby_fold c l (new_trace c first)). Qed.
Print Assumptions C03_deadline_formula.

Theorem C03_deadline_never_raised : forall (c : cfg) (now : Z) (tr : trace) (s : span),
  t_sendby (add_span c now tr s) <= t_sendby tr.
Proof. exact sendby_never_raised. Qed.
Print Assumptions C03_deadline_never_raised.

(* (b) Never early.  In any step the code can take, a trace leaves the buffer only through a tick
   whose instant is at or after the trace's deadline, or through a memory-pressure ejection. *)
Theorem C03_never_early :
  forall (sampler : N -> list span -> bool) (dry : bool) (w : wstate) (o : op) (w' : wstate) (evs : list ev)
         (t : N) (tr : trace),
  step sampler dry w o = Some (w', evs) -> alookup t (w_buf w) = Some tr -> alookup t (w_buf w') = None ->
  (exists now ch, o = OTick now ch /\ In t ch /\ t_sendby tr <= now) \/
  (exists bytes ch, o = OEject bytes ch /\ In t ch).
Proof. exact leaves_only_when_due. Qed.
Print Assumptions C03_never_early.

(* (c) What a tick takes, for EVERY way the priority queue may break ties: the taken traces are
   expired and leave the buffer; each has a deadline no later than every trace that stays; at most
   MaxExpiredTraces are taken (0 = unlimited); and an expired trace stays behind only if the tick
   took its full MaxExpiredTraces budget. *)
Theorem C03_tick_takes_earliest_up_to_max :
  forall (sampler : N -> list span -> bool) (dry : bool) (w : wstate) (now : Z) (ch : list N) (w' : wstate) (evs : list ev),
  step_tick sampler dry w now ch = Some (w', evs) ->
  w_buf w' = remove_all ch (w_buf w) /\
  (forall t, In t ch -> exists tr, alookup t (w_buf w) = Some tr /\ t_sendby tr <= now /\
                                   forall kv, In kv (w_buf w') -> t_sendby tr <= t_sendby (snd kv)) /\
  (0 < c_me (w_cfg w) -> Z.of_nat (length ch) <= c_me (w_cfg w)) /\
  ((0 < c_me (w_cfg w) /\ c_me (w_cfg w) <= Z.of_nat (length ch)) \/
   forall kv, In kv (w_buf w') -> now < t_sendby (snd kv)).
Proof. exact tick_spec. Qed.
Print Assumptions C03_tick_takes_earliest_up_to_max.

(* (d) Decided at the next tick: a buffered trace whose deadline has passed is decided by the tick
   unless MaxExpiredTraces other buffered traces have deadlines no later than its own. *)
Theorem C03_due_trace_decided_at_next_tick :
  forall (sampler : N -> list span -> bool) (dry : bool) (w : wstate) (now : Z) (ch : list N) (w' : wstate)
         (evs : list ev) (t : N) (tr : trace),
  NoDup (akeys (w_buf w)) ->
  step_tick sampler dry w now ch = Some (w', evs) ->
  alookup t (w_buf w) = Some tr -> t_sendby tr <= now ->
  (c_me (w_cfg w) <= 0 \/
   Z.of_nat (length (filter (fun kv => (t_sendby (snd kv) <=? t_sendby tr) && negb (N.eqb (fst kv) t)) (w_buf w)))
     < c_me (w_cfg w)) ->
  In t ch.
Proof. exact tick_decides_due. Qed.
Print Assumptions C03_due_trace_decided_at_next_tick.

(* ... and the next send tick is less than one SendTicker period away: with ticks at t0 + k*SendTicker,
   the first tick at or after a deadline d satisfies d <= tick < d + SendTicker. *)
Theorem C03_next_tick_within_send_ticker : forall t0 st d : Z,
  0 < st -> t0 <= d ->
  exists k, 0 <= k /\ d <= t0 + k * st < d + st /\ forall j, 0 <= j < k -> t0 + j * st < d.
Proof. exact next_tick_within_period. Qed.
Print Assumptions C03_next_tick_within_send_ticker.

(* the NoDup premise holds in every reachable state *)
Theorem C03_reachable_buffers_have_distinct_keys :
  forall (sampler : N -> list span -> bool) (dry : bool) (ops : list op) (w : wstate),
  NoDup (akeys (w_buf w)) -> NoDup (akeys (w_buf (fst (run sampler dry w ops)))).
Proof. exact run_nodup. Qed.
Print Assumptions C03_reachable_buffers_have_distinct_keys.

(* (e) The reported send reason of a trace decided by a tick: got_root if a root span is present,
   else span_limit if SpanLimit > 0 and the span count exceeds it, else expired. *)
Theorem C03_send_reason_ladder :
  forall (sampler : N -> list span -> bool) (dry : bool) (w : wstate) (now : Z) (ch : list N) (w' : wstate)
         (evs : list ev) (t s r : N),
  step_tick sampler dry w now ch = Some (w', evs) -> In (t, s, r) evs ->
  exists tr, alookup t (w_buf w) = Some tr /\ In s (sids tr) /\
    r = (if has_root tr then R_root
         else if (0 <? c_sl (w_cfg w)) && (c_sl (w_cfg w) <? count tr) then R_limit else R_expired).
Proof.
  intros sampler dry w now ch w' evs t s r H Hin.
  destruct (step_tick_inv _ _ _ _ _ _ _ H) as [l [T [_ [_ ->]]]].
  apply decide_list_events in Hin. destruct Hin as [tr [Hl [Hr [Hs _]]]].
  destruct (take_loop_spec _ _ _ _ _ _ T) as [_ [_ [Hbound _]]].
  exists tr. split; [apply (Hbound t tr Hl)|]. split; [exact Hs|exact Hr].
Qed.
Print Assumptions C03_send_reason_ladder.

(* the source still has the shape the model follows (ticker period = SendTicker, tick = send
   expired at Clock.Now(), MaxExpiredTraces passed to TakeExpiredTraces, pq ordered by SendBy,
   loop bound, stop at first unexpired, SendBy only lowered and re-queued, act-fast on span limit) *)
Example C03_code_shape :
  collect_ticks_every_send_ticker && collect_tick_runs_send_expired_at_now && tick_takes_expired_with_max &&
  take_loop_bound && take_stops_at_first_unexpired && pq_orders_by_earliest_sendby &&
  ps_new_trace_sendby_is_now_plus_timeout && ps_span_limit_acts_fast && ps_sendby_only_lowered_and_requeued = true.
Proof. vm_compute. reflexivity. Qed.

(* Non-vacuity: root after the span limit, a tick exactly at the timeout (and one instant before), a deadline
   tie at the MaxExpiredTraces cut. *)
Definition ex_sp (t i : N) (root : bool) : span :=
  {| s_id := i; s_tid := t; s_root := root; s_cls := 0; s_size := 10; s_age := 0 |}.
Definition ex_cfg : cfg := {| c_ver := 0; c_tt := 100; c_sd := 10; c_sl := 2; c_me := 1 |}.
Example C03_nonvacuous :
  (* deadline: first + 100, then the third span exceeds SpanLimit 2 at t=7 -> 7; a root at 8 cannot raise it *)
  t_sendby (fold_left (arrive ex_cfg) [(0, ex_sp 1 1 false); (5, ex_sp 1 2 false); (7, ex_sp 1 3 false); (8, ex_sp 1 4 true)]
                      (new_trace ex_cfg 0)) = 7 /\
  (* two traces expire at the same instant, MaxExpiredTraces = 1: the tick takes exactly one of them,
     either one; the reason of a rootless 1-span trace is "expired" *)
  (let ops := [OSpan 0 (ex_sp 1 1 false); OSpan 0 (ex_sp 2 2 false)] in
   let w := fst (run (fun _ _ => true) false (winit ex_cfg) ops) in
   step_tick (fun _ _ => true) false w 100 [1%N] <> None /\ step_tick (fun _ _ => true) false w 100 [2%N] <> None /\
   step_tick (fun _ _ => true) false w 100 [1%N; 2%N] = None /\ step_tick (fun _ _ => true) false w 99 [1%N] = None /\
   option_map snd (step_tick (fun _ _ => true) false w 100 [2%N]) = Some [(2%N, 2%N, R_expired)]).
Proof. vm_compute. repeat split; discriminate. Qed.
