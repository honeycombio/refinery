(* C09 — the sampling decision, rate and key do not depend on span order or wire encoding.
   Statements; each is closed by a lemma of Proofs/Wire.v, in a few lines from lemmas of Proofs/Wire.v,
   Proofs/Rules.v and Lib/Base.v, or by conversion on [dec].

   Model/Wire.v: wire values (signed / unsigned integers, 32 / 64-bit floats, JSON numbers), the
   ingestion paths and [dec] = decoding followed by Payload.Get's normalisation.
   Model/Rules.v is the rules sampler of C08; Model/KeyLite.v the key builder (below the cap).
   From Proofs/Wire.v: [trace_perm] (the same spans in another order, the same root), [wire_rel]
   (two wire values on two ingestion paths carry the same value), [wspan_rel] / [wtrace_rel]
   (field by field, span by span), [sv_eqv] (identical, or an integer |z| < 2^53 ([small]) and
   the float64 of that value).
   All theorems hold for every choice of the oracles (fmt / strconv / regexp, downstream sampler,
   rand draw). *)
From Coq Require Import Permutation.
From Refinery Require Import Lib.Base Model.Values Model.Rules Model.RulesSpec Model.Wire Model.KeyLite
     Proofs.Rules Proofs.Wire.
Local Open Scope string_scope.
Local Open Scope Z_scope.

(* (a) ORDER: any permutation of the spans (same root span) — every rule set, valid or not. *)
Theorem C09_rules_order_invariant :
  forall fmtv parsef rx ds draw t1 t2 rules i,
    trace_perm t1 t2 ->
    run_rules fmtv parsef rx ds draw t1 i rules = run_rules fmtv parsef rx ds draw t2 i rules.
Proof.
  intros fmtv parsef rx ds draw t1 t2 rules i Ht. apply run_rules_ext. intros r.
  apply (spec_rule_matches_rel fmtv eq).
  - unfold has_root. rewrite (proj2 Ht). reflexivity.
  - intros f g H. rewrite (existsb_perm f _ _ (proj1 Ht)). apply existsb_ext_eq. intros sp. apply H. reflexivity.
  - intros sp _ c <- _. rewrite (cond_value_perm t1 t2 sp c Ht). reflexivity.
Qed.
Print Assumptions C09_rules_order_invariant.

Theorem C09_key_order_invariant :
  forall fmtf fields use_len t1 t2,
    trace_perm t1 t2 -> key_of fmtf fields use_len t1 = key_of fmtf fields use_len t2.
Proof. exact key_perm. Qed.
Print Assumptions C09_key_order_invariant.

(* (b) ENCODING.  msgpack signedness and float width: the value the samplers read is identical. *)
Theorem C09_msgpack_unsigned_reads_as_signed :
  forall p z, z <= int_max -> dec p (WUint z) = dec p (WInt z).
Proof. exact dec_unsigned_same. Qed.
Print Assumptions C09_msgpack_unsigned_reads_as_signed.

Theorem C09_msgpack_float32_reads_as_float64 :
  forall p d, dec p (WF32 d) = dec p (WF64 d).
Proof. reflexivity. Qed.
Print Assumptions C09_msgpack_float32_reads_as_float64.

(* Any two ways of carrying the same value (signed / unsigned, 32 / 64 bit, integer vs float with
   that value, through any two ingestion paths; integers on a JSON path or sent as floats must be
   exactly representable, |z| < 2^53, and two integer encodings carry a value up to MaxInt64) decode to equivalent values ... *)
Theorem C09_decoding_preserves_value :
  forall p1 w1 p2 w2, wire_rel p1 w1 p2 w2 -> sv_eqv (dec p1 w1) (dec p2 w2).
Proof. exact dec_rel. Qed.
Print Assumptions C09_decoding_preserves_value.

(* ... and equivalent traces get the same decision, rate, reason and key from EVERY rule set ... *)
Theorem C09_rules_encoding_invariant :
  forall fmtv parsef rx ds draw rules t1 t2,
    wtrace_rel t1 t2 ->
    run_rules fmtv parsef rx ds draw (dec_trace t1) O rules =
    run_rules fmtv parsef rx ds draw (dec_trace t2) O rules.
Proof. intros fmtv parsef rx ds draw rules t1 t2 H. apply run_rules_eqv, dec_trace_rel, H. Qed.
Print Assumptions C09_rules_encoding_invariant.

(* ... and the same dynamic-sampler key. *)
Theorem C09_key_encoding_invariant :
  forall fmtf fields use_len t1 t2,
    wtrace_rel t1 t2 ->
    key_of fmtf fields use_len (dec_trace t1) = key_of fmtf fields use_len (dec_trace t2).
Proof. exact key_encoding_invariant. Qed.
Print Assumptions C09_key_encoding_invariant.

(* Non-vacuity: one trace sent two ways *)
Definition exf (d : dy) : string := "1.5".
Definition ex_a : wtrace :=
  let s1 := {| w_path := PMsgp; w_fields := [("status", WInt 200); ("dur", WF64 (Dy 3 (-1)))] |} in
  let s2 := {| w_path := PMsgp; w_fields := [("status", WInt 500)] |} in
  {| wt_spans := [s1; s2]; wt_root := Some s1 |}.
Definition ex_b : wtrace :=
  let s1 := {| w_path := PJson; w_fields := [("status", WInt 200); ("dur", WF64 (Dy 3 (-1)))] |} in
  let s2 := {| w_path := PMsgp; w_fields := [("status", WUint 500)] |} in
  {| wt_spans := [s1; s2]; wt_root := Some s1 |}.
Definition ex_c09_rules : list rule :=
  [{| r_name := "ok"; r_rate := 7; r_drop := false; r_scope := "span";
      r_conds := [{| c_field := "status"; c_fields := []; c_opname := "=";
                     c_val := CScalar (CStr "200"); c_dtname := "string" |}];
      r_sampler := false |}].

Example C09_nonvacuous :
  wtrace_rel ex_a ex_b /\
  run_rules exf (fun _ => None) (fun _ => None) (fun _ => None) (fun _ => 0) (dec_trace ex_b) O ex_c09_rules =
    {| o_rate := 7; o_keep := true; o_reason := "rules/span/ok"; o_key := "" |} /\
  key_of exf ["status"; "root.dur"] true (dec_trace ex_b) = key_of exf ["status"; "root.dur"] true (dec_trace ex_a).
Proof.
  split; [|split; vm_compute; reflexivity].
  (* [wtrace_rel] field by field: equal names, equal integers far below 2^53, equal floats *)
  split; cbn; repeat constructor; cbn; lia.
Qed.
