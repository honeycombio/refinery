(* C36 — graceful shutdown drains buffered traces and stops cleanly   (PARTIAL, known finding).
   Collector part: InMemCollector.Stop / CollectorWorker.collect as modelled in Model/Shutdown.v.
   Transmission part: DirectTransmission.Stop's flush as modelled in Model/Transmit.v, theorems at the
   end of this file.  The refutation is proved here on its witness; every other
   theorem is closed by a lemma of Proofs/Shutdown.v, Proofs/ShutdownTx.v or Proofs/Transmit.v, or by
   a few lines instantiating one (the documented drain from Proofs/CollectorTime.v).  Not covered by any theorem (runtime behaviour, observed by the
   driver only): goroutines left behind, panics, hangs, the startstop ordering of cmd/refinery. *)
From Refinery Require Import Lib.Base Model.Collector Model.Shutdown Proofs.CollectorRef Proofs.CollectorTime Proofs.Shutdown Gen.GenC36.
From Refinery Require Model.Transmit Proofs.Transmit Proofs.ShutdownTx.

(* The faithful model violates the statement: the pinned Stop never visits the trace buffers, so a
   trace buffered at shutdown is neither decided nor forwarded although the sampler keeps it.
   Witness (replayed on the Go code by corpus/C36/stop-with-buffered-trace.json): one span, then Stop. *)
Definition wit_span : span := {| s_id := 7; s_tid := 1; s_root := true; s_cls := 0; s_size := 10; s_age := 0 |}.
Definition wit_cfg : cfg := {| c_ver := 0; c_tt := 100; c_sd := 10; c_sl := 0; c_me := 0 |}.
Theorem C36_shutdown_drain_refuted :
  exists (sampler : N -> list span -> bool) (c : cfg) (ops : list op) (t s : N),
    accepted_by ops t s /\ sampler (c_ver c) [wit_span] = true /\
    let r := run_then_stop sampler false stop_pinned (winit c) ops in
    alookup t (w_buf (fst r)) <> None /\ alookup t (w_dec (fst r)) = None /\ ~ forwarded (snd r) t s.
Proof.
  exists (fun _ _ => true), wit_cfg, [OSpan 0 wit_span], 1%N, 7%N.
  split; [exists 0, wit_span; split; [left; reflexivity|split; reflexivity]|].
  split; [reflexivity|]. vm_compute. split; [discriminate|]. split; [reflexivity|].
  intros [r H]. destruct H.
Qed.
Print Assumptions C36_shutdown_drain_refuted.

(* What does hold for the pinned code: traces decided before shutdown were handled completely.  If
   every buffer is empty when Stop is called (e.g. after the late ticks of C02_eventually_decided)
   every accepted span of a never-forgotten trace has a decision and was forwarded iff kept/dry run;
   Stop itself forwards nothing (so nothing is duplicated or forwarded for a dropped trace). *)
Theorem C36_nothing_lost_if_buffers_empty_partial :
  forall (sampler : N -> list span -> bool) (dry : bool) (c : cfg) (ops : list op) (t s : N),
  w_buf (fst (run sampler dry (winit c) ops)) = [] ->
  ~ In (OForget t) ops -> accepted_by ops t s ->
  exists k, alookup t (w_dec (fst (run_then_stop sampler dry stop_pinned (winit c) ops))) = Some k /\
            (forwarded (snd (run_then_stop sampler dry stop_pinned (winit c) ops)) t s <-> k || dry = true).
Proof. exact stop_pinned_loses_nothing_if_drained. Qed.
Print Assumptions C36_nothing_lost_if_buffers_empty_partial.

(* The documented drain (what a repair has to do; notes/C36_drain_patch.diff): deciding every
   buffered trace the usual way empties the buffer, records a decision for each and forwards exactly
   the spans of the kept ones (all of them under dry run). *)
Theorem C36_documented_drain_meets_the_property :
  forall (sampler : N -> list span -> bool) (dry : bool) (w : wstate),
  NoDup (akeys (w_buf w)) ->
  w_buf (fst (stop_drain sampler dry w)) = [] /\
  forall t tr, alookup t (w_buf w) = Some tr ->
    alookup t (w_dec (fst (stop_drain sampler dry w))) = Some (sampler (c_ver (w_cfg w)) (rev (t_spans tr))) /\
    (forall s, In s (sids tr) ->
       (In (t, s, tick_reason (w_cfg w) tr) (snd (stop_drain sampler dry w)) <->
        sampler (c_ver (w_cfg w)) (rev (t_spans tr)) || dry = true)).
Proof.
  intros sampler dry w Hnd. unfold stop_drain. split.
  - rewrite decide_list_eq. apply remove_all_covering, incl_refl.
  - intros t tr Hl. apply decide_list_member; [exact Hnd|apply alookup_In; exact Hl].
Qed.
Print Assumptions C36_documented_drain_meets_the_property.

(* the source shape the model of Stop relies on; [stop_visits_buffers_*] become true when a drain is added,
   which breaks this example on purpose: the model must then be moved to stop_drain *)
Example C36_code_shape :
  stop_closes_worker_channels && stop_waits_for_workers_before_closing_send_queue &&
  collect_returns_on_closed_channel && negb (stop_visits_buffers_in_stop || stop_visits_buffers_in_collect) &&
  (* a worker may still be deciding when shutdown starts: its decision cache is stopped only after it has exited *)
  list_eqb String.eqb stop_order_of_wait_and_cache_stop ["i.workersWG.Wait()"; "worker.Stop()"]%string = true.
Proof. vm_compute. reflexivity. Qed.

(* "flushes every pending outgoing batch".  For every MaxBatchSize >= 1, BatchTimeout >= 4 ns, every
   history of enqueues and clock advances (whatever the collector handed over before and during its own
   Stop), every behaviour of the API: after DirectTransmission.Stop nothing is pending, every enqueued
   event is in exactly one outgoing request (or was dropped as > 1 MB and counted), and the queued-items
   gauge is back to zero. *)
Theorem C36_transmission_stop_flushes_everything :
  forall (mb b : Z) (beh : N -> list Transmit.resp) (bad : N -> bool) (t0 : Z) (ops : list Transmit.top),
  1 <= mb -> 4 <= b -> Transmit.ops_ok ops = true ->
  exists r, Transmit.run (Transmit.gen_cfg mb b) beh bad t0 (ops ++ [Transmit.Stop]) = Some r /\
    Transmit.r_pending r = [] /\
    Permutation.Permutation (Transmit.enqueued ops) (concat (map Transmit.rq_evs (Transmit.r_reqs r)) ++ Transmit.r_over r) /\
    Transmit.r_ups r - Transmit.downs (Transmit.r_cnt r) = 0.
Proof. exact Proofs.Transmit.c26_stop. Qed.
Print Assumptions C36_transmission_stop_flushes_everything.

(* The batches of the flush are sent by the same retry loop as any other batch (Stop dispatches them
   through sendBatch): a first attempt answered 429/503 with a Retry-After sleep in (0, 60 s) is followed
   by the sleep and a second attempt; so is a first attempt that timed out.  (The source's retry bound is 2.) *)
Theorem C36_flush_batch_retried_after_429_503 :
  forall (c : Transmit.tcfg) (code sl : Z) (sts : list Z) (rest : list Transmit.resp),
  Transmit.retryable_status code = true -> 0 < sl < Transmit.retryLim c ->
  fst (fst (Transmit.tries c 2 (Transmit.RHttp code sl sts :: rest))) = 2%N /\
  exists more, snd (fst (Transmit.tries c 2 (Transmit.RHttp code sl sts :: rest))) = sl :: more.
Proof.
  intros c code sl sts rest Hr Hsl. rewrite (Proofs.ShutdownTx.tries_retryable c 0) by assumption.
  destruct (Proofs.ShutdownTx.tries_last c rest) as [sls [l ->]]. cbn [fst snd]. eauto.
Qed.
Print Assumptions C36_flush_batch_retried_after_429_503.

Theorem C36_flush_batch_retried_after_timeout :
  forall (c : Transmit.tcfg) (rest : list Transmit.resp),
  fst (fst (Transmit.tries c 2 (Transmit.RTimeout :: rest))) = 2%N.
Proof.
  intros c rest. rewrite (Proofs.ShutdownTx.tries_timeout c 0).
  destruct (Proofs.ShutdownTx.tries_last c rest) as [sls [l ->]]. reflexivity.
Qed.
Print Assumptions C36_flush_batch_retried_after_timeout.

Example C36_retry_bound_in_source : forall mb b, Transmit.ntries (Transmit.gen_cfg mb b) = 2%nat.
Proof. reflexivity. Qed.
