(* C23 - responses reflect what happened to the data.
   Statements; the proofs are in Proofs/Respond.v: each theorem is closed by a theorem from there (those
   about [tree_obs] at gen_params) or by a few lines of its own.

   [tree_obs r] = observe (handle gen_params r): what a client, the collector and the two transmissions
   observe when the model of the six ingestion entry points - instantiated with the status table, the
   "is this error report followed by return" flags and the OTLP "propagate the lookup error" flags that
   tools/translate extracted from the working tree (Gen/GenC23.v) - handles request [r].
   A request is: endpoint, called through the mux or directly, classic or modern key, ANY combination of
   injected faults (key refused, body unreadable, dataset undecodable, environment lookup failing, body
   unparsable, unsupported content type), ANY list of events of any classes, and ANY script of collector
   admission answers.  The only hypothesis, [ext_ok], says that the status codes husky and grpc-go attach to
   their own errors (handed over by the harness from the libraries' constants, validated on every case by
   Monitor.C23.check) are error codes.
   Also from Proofs/Respond.v: [answers n a], the first n admission answers of the script a; the standard
   third-party codes [ext_std], the fault patterns [no_faults] and [env_fault] (only the environment lookup
   fails), and the requests [witness_batch], [witness_otlp] of the two refutations. *)
From Refinery Require Import Lib.Base Model.Respond Proofs.Respond.

(* Clause 1: an error status for the request as a whole => none of its events was forwarded or buffered. *)
Theorem C23_error_status_no_effects : forall r, ext_ok (r_ext r) = true ->
  is_error (r_ep r) (ob_status (tree_obs r)) = true -> effects (tree_obs r) = [].
Proof. intros r. exact (error_status_no_effects gen_params r gen_params_ok). Qed.
Print Assumptions C23_error_status_no_effects.

(* Clause 2: a success status => every event of the request was handed to its component (collector, upstream
   or peer transmission) exactly once and in order, and nothing else was: no event is discarded unprocessed. *)
Theorem C23_success_all_processed : forall r, ext_ok (r_ext r) = true ->
  is_error (r_ep r) (ob_status (tree_obs r)) = false ->
  exists outs, replay (req_events r) (ob_adds (tree_obs r)) (ob_up (tree_obs r)) (ob_peer (tree_obs r)) = Some outs /\
               length outs = length (req_events r).
Proof. intros r. exact (success_all_processed gen_params r gen_params_ok). Qed.
Print Assumptions C23_success_all_processed.

(* Clause 3: an answered batch lists, item by item, the status of what happened to that event ... *)
Theorem C23_batch_item_statuses : forall r, ext_ok (r_ext r) = true -> r_ep r = EpBatch ->
  is_error EpBatch (ob_status (tree_obs r)) = false ->
  exists outs, replay (r_events r) (ob_adds (tree_obs r)) (ob_up (tree_obs r)) (ob_peer (tree_obs r)) = Some outs /\
               length outs = length (r_events r) /\
               ob_docs (tree_obs r) = [DList (map std_status outs)].
Proof. intros r. exact (batch_item_statuses gen_params r gen_params_ok). Qed.
Print Assumptions C23_batch_item_statuses.

(* ... where 202 is listed exactly for accepted events, 429 exactly for queue-full, 400 exactly for invalid. *)
Theorem C23_status_202_exactly_accepted : forall o, std_status o = 202%N <-> accepted o.
Proof. intros o. unfold accepted. destruct o; cbn; intuition congruence. Qed.
Print Assumptions C23_status_202_exactly_accepted.
Theorem C23_status_429_exactly_queue_full : forall o, std_status o = 429%N <-> o = ORefused.
Proof. intros o. destruct o; cbn; intuition congruence. Qed.
Print Assumptions C23_status_429_exactly_queue_full.
Theorem C23_status_400_exactly_invalid : forall o, std_status o = 400%N <-> o = OInvalid.
Proof. intros o. destruct o; cbn; intuition congruence. Qed.
Print Assumptions C23_status_400_exactly_invalid.

(* Clause 4: every request receives exactly one status: the status is set at most once (never a second
   WriteHeader, never a header after the body started), the body holds at most one document, and an error
   answer on /1/ is one status write plus exactly one error document. *)
Theorem C23_exactly_one_status : forall r, ext_ok (r_ext r) = true ->
  (ob_hdr_calls (tree_obs r) <= 1)%N /\ (length (ob_docs (tree_obs r)) <= 1)%nat /\
  (is_v1 (r_ep r) = true -> is_error (r_ep r) (ob_status (tree_obs r)) = true ->
   ob_docs (tree_obs r) = [DErr] /\ ob_hdr_calls (tree_obs r) = 1%N).
Proof. intros r. exact (exactly_one_status gen_params r gen_params_ok). Qed.
Print Assumptions C23_exactly_one_status.

(* The boolean monitor that is run on the implementation's observations never fires on the model's own. *)
Theorem C23_monitor_accepts_model : forall r, ext_ok (r_ext r) = true -> check_obs r (tree_obs r) = [].
Proof. intros r. exact (monitor_accepts_model gen_params r gen_params_ok). Qed.
Print Assumptions C23_monitor_accepts_model.

(* Queue admission: the k-th span offered to the collector receives the k-th admission answer. *)
Theorem C23_admission_in_order : forall evs a acts outs, event_loop evs a = (acts, outs) ->
  map snd (adds_of acts) = answers (length (adds_of acts)) a.
Proof. exact event_loop_admission. Qed.
Print Assumptions C23_admission_in_order.

(* The pinned tree (before repo commit "fix: batch stops after reporting ...") violated clauses 1, 4 and 2: *)
Theorem C23_pinned_batch_refuted :
  let o := observe (handle pinned_params witness_batch) in
  is_error EpBatch (ob_status o) = true /\ effects o = [1; 3; 2]%N /\ length (ob_docs o) = 2%nat.
Proof. exact pinned_batch_refuted. Qed.
Print Assumptions C23_pinned_batch_refuted.
Theorem C23_pinned_otlp_refuted :
  let o := observe (handle pinned_params witness_otlp) in
  is_error EpOtlpTraceHttp (ob_status o) = false /\
  replay (r_events witness_otlp) (ob_adds o) (ob_up o) (ob_peer o) = None /\ effects o = [].
Proof. exact pinned_otlp_refuted. Qed.
Print Assumptions C23_pinned_otlp_refuted.

(* Non-vacuity: a batch of six events of every class with one queue-full answer is answered 200 with the
   prescribed list; the same batch with a failing environment lookup is refused as a whole, untouched. *)
Example C23_nonvacuous :
  let evs := [(1, EvMine); (2, EvEmpty); (3, EvPeer); (4, EvMine); (5, EvNonTrace); (6, EvProbe)]%N in
  let ok := {| r_ep := EpBatch; r_direct := false; r_legacy := false; r_f := no_faults;
               r_events := evs; r_admit := [true; false]; r_ext := ext_std |} in
  let bad := {| r_ep := EpBatch; r_direct := false; r_legacy := false; r_f := env_fault;
                r_events := evs; r_admit := [true; false]; r_ext := ext_std |} in
  ext_ok ext_std = true /\
  tree_obs ok = {| ob_status := 200; ob_hdr_calls := 1; ob_docs := [DList [202; 400; 202; 429; 202; 202]%N];
                   ob_adds := [(1, true); (4, false)]%N; ob_up := [5%N]; ob_peer := [3%N] |} /\
  tree_obs bad = {| ob_status := 400; ob_hdr_calls := 1; ob_docs := [DErr];
                    ob_adds := []; ob_up := []; ob_peer := [] |}.
Proof. vm_compute. repeat split; reflexivity. Qed.
