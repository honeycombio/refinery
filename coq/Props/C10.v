(* C10 — deterministic sampling is a pure, nested function of the trace ID.
   Statements; each theorem is closed by a lemma of Proofs/Determ.v or by a few lines on the definitions of
   Model/Determ.v (with one such lemma, or none), the two source-shape ones by conversion on Gen/GenC10.v.
   h is the value of the fixed hash of the trace ID (sha1(traceID+salt)[:4] / wyhash(traceID, seed));
   the harness passes the value the real hash returned.  The constants are the literals of
   Model/Determ.v, which C10_source_shape and C10_source_shape_stress show equal to what the
   translator extracts from the source (Gen/GenC10.v). *)
From Refinery Require Import Lib.Base Model.Determ Proofs.Determ.
From Refinery Require Gen.GenC10.

(* The translator found the arithmetic the model is built on (numerator, uint32 conversion,
   "<= 1 keeps all", "<=" comparison, 4 hash bytes, rate returned unchanged). *)
Theorem C10_source_shape :
  GenC10.det_max = 4294967295 /\ GenC10.det_conv_bits = 32 /\ GenC10.det_always_le = 1 /\
  GenC10.det_start_guards_wide_rates = true /\
  GenC10.det_cmp_le = true /\ GenC10.det_hash_bytes = 4 /\
  GenC10.det_rate_from_config = true /\ GenC10.det_returns_rate = true /\
  GenC10.det_hash_of_traceid_and_salt = true /\
  GenC10.det_max = DET_MAX /\ GenC10.det_conv_bits = DET_BITS /\ GenC10.det_always_le = DET_ALWAYS /\
  GenC10.det_cmp_le = DET_LE /\ GenC10.det_hash_bytes = DET_HASH_BYTES /\ GenC10.det_salt = DET_SALT.
Proof.
  (* by conversion on Gen/GenC10.v: after an edit to deterministic.go that changes one of these
     values, or makes it unextractable, [reflexivity] fails here *)
  repeat split; reflexivity.
Qed.
Print Assumptions C10_source_shape.

Theorem C10_source_shape_stress :
  GenC10.stress_max = 18446744073709551615 /\ GenC10.stress_zero_becomes = 1 /\
  GenC10.stress_always_le = 1 /\ GenC10.stress_cmp_le = true /\
  GenC10.stress_bound_is_quotient = true /\ GenC10.stress_hash_of_traceid_and_seed = true /\
  GenC10.stress_max = STRESS_MAX /\ GenC10.stress_zero_becomes = STRESS_ZERO /\
  GenC10.stress_always_le = STRESS_ALWAYS /\ GenC10.stress_cmp_le = STRESS_LE /\ GenC10.stress_seed = STRESS_SEED.
Proof. repeat split; reflexivity. Qed.
Print Assumptions C10_source_shape_stress.

(* Deterministic sampler, every rate 1 <= rate < 2^32 (the property asks for 1..2^31) and every hash:
   Start does not crash, the configured rate is returned (1 for rate 1), and the trace is kept
   exactly when   rate <= 1  \/  h * rate <= 2^32-1   — a threshold on the hash set by the rate,
   a function of (rate, h) only. *)
Theorem C10_det_threshold : forall rate h,
  1 <= rate < 4294967296 ->
  det_sample rate h = Some (if rate <=? 1 then 1 else rate, spec_keep DET_MAX rate h).
Proof. exact det_sample_in_range. Qed.
Print Assumptions C10_det_threshold.

(* every node / every run: two instances started from the same rate agree on every hash *)
Theorem C10_det_instances_agree : forall rate i1 i2 h,
  det_start rate = Some i1 -> det_start rate = Some i2 -> det_get i1 h = det_get i2 h.
Proof. exact det_instances_agree. Qed.
Print Assumptions C10_det_instances_agree.

(* a rate of 1 or less (any Go int, including 0 and negatives) keeps everything at rate 1
   whenever the sampler answers at all *)
Theorem C10_det_rate_le_1_keeps_all : forall rate h r k,
  rate <= 1 -> det_sample rate h = Some (r, k) -> r = 1 /\ k = true.
Proof.
  intros rate h r k Hr. unfold det_sample, det_start.
  destruct (det_bound _ _ rate) as [b|]; [|discriminate].
  unfold det_get, gen_get. cbn [d_rate d_bound]. change DET_ALWAYS with 1.
  destruct (Z.leb_spec rate 1); [|lia]. intros [= <- <-]. split; reflexivity.
Qed.
Print Assumptions C10_det_rate_le_1_keeps_all.

(* nesting: kept at rate N => kept at every rate M <= N *)
Theorem C10_det_nested : forall m n h,
  1 <= m -> m <= n -> n < 4294967296 -> 0 <= h ->
  det_keep n h = true -> det_keep m h = true.
Proof. exact det_nested. Qed.
Print Assumptions C10_det_nested.

(* kept fraction: among the 2^32 hash values exactly floor((2^32-1)/rate)+1 are kept, and
   2^32 <= rate * kept <= 2^32 + rate - 1, i.e. |kept/2^32 - 1/rate| < 2^-32.
   (With a uniform hash this is "1/N of random trace IDs"; uniformity of sha1 is an assumption,
   checked only statistically by the correspondence.) *)
Theorem C10_det_fraction : forall rate,
  1 <= rate < 4294967296 ->
  let kept := countN (det_keep rate) (Z.to_N det_hash_range) in
  kept = DET_MAX / rate + 1 /\
  det_hash_range <= rate * kept <= det_hash_range + rate - 1.
Proof. exact det_fraction. Qed.
Print Assumptions C10_det_fraction.

(* Start never panics, for any Go int (the guard on rates wider than 32 bits is part of the model) … *)
Theorem C10_det_start_never_panics : forall rate,
  -9223372036854775808 <= rate < 9223372036854775808 -> det_start rate <> None.
Proof.
  intros rate Hr. unfold det_start. destruct (Z.le_gt_cases 1 rate).
  - rewrite det_bound_pos by lia. discriminate.
  - unfold det_bound. destruct (_ <? _); [discriminate|].
    destruct (Z.ltb_spec 1 rate); [lia|discriminate].
Qed.
Print Assumptions C10_det_start_never_panics.

(* … and rates that do not fit in 32 bits (outside C10's range) keep only the hash value 0 *)
Theorem C10_det_rates_above_32_bits : forall rate h,
  4294967296 <= rate < 9223372036854775808 ->
  det_sample rate h = Some (rate, h <=? 0).
Proof.
  intros rate h Hr. rewrite det_sample_pos by lia. destruct (Z.leb_spec rate 4294967295); [lia|].
  unfold gen_get, thr_cmp. destruct (Z.leb_spec rate 1); [lia|reflexivity].
Qed.
Print Assumptions C10_det_rates_above_32_bits.

(* Stress relief, every configured rate 0 <= cfg < 2^64 (0 is read as 1) and every hash *)
Theorem C10_stress_threshold : forall cfg h,
  0 <= cfg < 18446744073709551616 ->
  stress_sample cfg h = (if cfg <=? 1 then 1 else cfg, spec_keep STRESS_MAX cfg h).
Proof. exact stress_sample_spec. Qed.
Print Assumptions C10_stress_threshold.

Theorem C10_stress_rate_le_1_keeps_all : forall cfg h,
  0 <= cfg <= 1 -> stress_sample cfg h = (1, true).
Proof.
  intros cfg h Hc. rewrite stress_sample_spec by lia. unfold spec_keep.
  destruct (Z.leb_spec cfg 1); [reflexivity|lia].
Qed.
Print Assumptions C10_stress_rate_le_1_keeps_all.

Theorem C10_stress_nested : forall m n h,
  0 <= m -> m <= n -> n < 18446744073709551616 -> 0 <= h ->
  stress_keep n h = true -> stress_keep m h = true.
Proof. exact stress_nested. Qed.
Print Assumptions C10_stress_nested.

Theorem C10_stress_fraction : forall cfg,
  1 <= cfg < 18446744073709551616 ->
  let kept := countN (stress_keep cfg) (Z.to_N stress_hash_range) in
  kept = STRESS_MAX / cfg + 1 /\
  stress_hash_range <= cfg * kept <= stress_hash_range + cfg - 1.
Proof. exact stress_fraction. Qed.
Print Assumptions C10_stress_fraction.

(* Non-vacuity: concrete hashes on both sides of the threshold, at the exact boundary
   (h * rate = 2^32-1 for rate 3: h = 1431655765), nesting with a strict change of decision. *)
Example C10_nonvacuous :
  det_sample 3 1431655765 = Some (3, true) /\ det_sample 3 1431655766 = Some (3, false) /\
  det_sample 2 1431655766 = Some (2, true) /\ det_sample 1 4294967295 = Some (1, true) /\
  det_sample 2147483648 1 = Some (2147483648, true) /\ det_sample 2147483648 2 = Some (2147483648, false) /\
  det_sample 4294967296 0 = Some (4294967296, true) /\ det_sample 4294967296 1 = Some (4294967296, false) /\
  det_sample 0 77 = Some (1, true) /\ det_sample (-4294967296) 77 = Some (1, true) /\
  stress_sample 0 18446744073709551615 = (1, true) /\
  stress_sample 3 6148914691236517205 = (3, true) /\ stress_sample 3 6148914691236517206 = (3, false) /\
  stress_sample 18446744073709551615 1 = (18446744073709551615, true) /\
  stress_sample 18446744073709551615 2 = (18446744073709551615, false).
Proof. vm_compute. repeat split; reflexivity. Qed.
