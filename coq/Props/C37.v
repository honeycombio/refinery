(* C37 - unhandled paths are proxied to Honeycomb faithfully.   PARTIAL CLAIM.
   Statements; each is closed by a theorem of Proofs/Proxy.v or by a few lines that use its lemmas.

   What is proved is about route/proxy.go's own logic on request/response records (all methods, targets, bodies,
   header maps with unique names and arbitrary value lists, all upstream answers).  Not modelled, hence not
   claimed: net/http transfer semantics (Host, Content-Length / chunking, the transport's own Accept-Encoding and
   User-Agent, transparent gzip, Date, content sniffing, connection failures) and gorilla/mux's redirect of unclean
   paths before the proxy runs.  Repeated headers are compared in the canonical form "values joined by ','",
   which is what the code produces; the join is lossy for values that contain commas. *)
From Refinery Require Import Lib.Base Model.Proxy Proofs.Proxy.

(* the source of Router.proxy has the shape the model was written for *)
Theorem C37_source_matches_model : source_ok = true.
Proof. vm_compute. reflexivity. Qed.
Print Assumptions C37_source_matches_model.

(* the working tree relays redirects and keeps the client's whole X-Forwarded-For chain (repo fixes 7892ae0, f2ad173) *)
Theorem C37_tree_flags : pp_relay_redirects gen_pparams = true /\ pp_xff_all gen_pparams = true.
Proof. split; vm_compute; reflexivity. Qed.
Print Assumptions C37_tree_flags.

Theorem C37_same_method_target_body : forall p r,
  q_method (relay_req p r) = q_method r /\ q_target (relay_req p r) = q_target r /\ q_body (relay_req p r) = q_body r.
Proof. repeat split; reflexivity. Qed.
Print Assumptions C37_same_method_target_body.

(* every client header other than X-Forwarded-For reaches the upstream with its values joined by ",";
   the upstream sees no other header (the statement is an equality of lookups for EVERY name) *)
Theorem C37_request_headers_preserved : forall p r n, n <> xff ->
  hlookup n (q_hdrs (relay_req p r)) = option_map (fun vs => [joinc vs]) (hlookup n (q_hdrs r)).
Proof.
  intros p r n Hne. apply String.eqb_neq in Hne. cbn [relay_req q_hdrs].
  rewrite hlookup_hset, Hne. apply hlookup_join_all.
Qed.
Print Assumptions C37_request_headers_preserved.

(* X-Forwarded-For = the client's chain (all its values, ", "-joined) followed by the peer address *)
Theorem C37_forwarded_for : forall p r, pp_xff_all p = true ->
  hlookup xff (q_hdrs (relay_req p r)) = Some [forwarded_for p r] /\
  forwarded_for p r =
  match hlookup xff (q_hdrs r) with
  | Some vs => if String.eqb (joincs vs) "" then q_remote r else (joincs vs ++ ", " ++ q_remote r)%string
  | None => q_remote r
  end.
Proof. intros p r H. split; [exact (relay_req_xff p r) | exact (forwarded_for_all p r H)]. Qed.
Print Assumptions C37_forwarded_for.

Theorem C37_same_status_body : forall p u, s_status (relay_resp p u) = s_status u /\ s_body (relay_resp p u) = s_body u.
Proof. split; reflexivity. Qed.
Print Assumptions C37_same_status_body.

(* every header the upstream sent reaches the client with its values joined by "," *)
Theorem C37_response_headers_kept_partial : forall p u n vs, NoDup (names (s_hdrs u)) ->
  hlookup n (s_hdrs u) = Some vs -> hlookup n (s_hdrs (relay_resp p u)) = Some [joinc vs].
Proof.
  intros p u n vs Hnd Hl. cbn [relay_resp s_hdrs]. apply set_all_lookup_some.
  - rewrite names_join_all. exact Hnd.
  - rewrite hlookup_join_all, Hl. reflexivity.
Qed.
Print Assumptions C37_response_headers_kept_partial.

(* PARTIAL: a header the upstream did NOT send appears at the client exactly when setResponseHeaders presets it *)
Theorem C37_response_headers_others_partial : forall p u n,
  hlookup n (s_hdrs u) = None -> hlookup n (s_hdrs (relay_resp p u)) = hlookup n (pp_defaults p).
Proof.
  intros p u n Hl. cbn [relay_resp s_hdrs]. apply set_all_lookup_none.
  rewrite hlookup_join_all, Hl. reflexivity.
Qed.
Print Assumptions C37_response_headers_others_partial.

(* ... so "headers returned unchanged" is false on the working tree: known finding C37-preset-response-headers *)
Theorem C37_response_headers_unchanged_refuted :
  exists u n, hlookup n (s_hdrs u) = None /\ hlookup n (s_hdrs (relay_resp gen_pparams u)) <> None.
Proof.
  exists {| s_status := 200; s_hdrs := [("X-Upstream"%string, ["1"%string])]; s_body := ""%string |}.
  exists "Access-Control-Allow-Origin"%string. split; [reflexivity|]. vm_compute. discriminate.
Qed.
Print Assumptions C37_response_headers_unchanged_refuted.

(* the pinned tree forwarded only the first X-Forwarded-For value *)
Theorem C37_pinned_xff_refuted :
  let r := {| q_method := "GET"; q_target := "/1/markers/ds"; q_body := "";
              q_hdrs := [(xff, ["10.0.0.1"; "10.0.0.2"])]; q_remote := "192.0.2.1:1234" |}%string in
  forwarded_for pinned_pparams r = "10.0.0.1, 192.0.2.1:1234"%string.
Proof. exact pinned_xff_refuted. Qed.
Print Assumptions C37_pinned_xff_refuted.

Local Open Scope string_scope.
Example C37_nonvacuous :
  let r := {| q_method := "POST"; q_target := "/1/markers/my%20ds?x=1&x=2"; q_body := "{}";
              q_hdrs := [("Accept", ["a"; "b"]); (xff, ["10.0.0.1"; "10.0.0.2"]); ("X-Honeycomb-Team", ["k"])];
              q_remote := "192.0.2.1:1234" |} in
  let u := {| s_status := 302; s_hdrs := [("Location", ["/x"]); ("Set-Cookie", ["a=1"; "b=2"])]; s_body := "moved" |} in
  q_hdrs (relay_req gen_pparams r) =
    [("Accept", ["a,b"]); (xff, ["10.0.0.1, 10.0.0.2, 192.0.2.1:1234"]); ("X-Honeycomb-Team", ["k"])] /\
  relay_resp gen_pparams u =
    {| s_status := 302;
       s_hdrs := [("Content-Type", ["application/json"]); ("Access-Control-Allow-Origin", ["*"]);
                  ("Location", ["/x"]); ("Set-Cookie", ["a=1,b=2"])];
       s_body := "moved" |}.
Proof. vm_compute. split; reflexivity. Qed.
