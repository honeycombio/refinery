(* C24 - ingest authorization and key replacement are uniform across protocols.
   Statements; each is closed by a theorem of Proofs/Auth.v or by a few lines that use its lemmas.

   [enter e c kid_of key] interprets the accept / replace / assign / validate / translate script that
   tools/translate extracted from entry point [e] of the working tree (Gen/GenC24.v) over the model of
   AccessKeyConfig.IsAccepted / GetReplaceKey, for configuration [c], key-ID oracle [kid_of] (what Honeycomb's
   /1/auth reports) and client key [key].  All statements hold for ALL configurations (any ReceiveKeys,
   ReceiveKeyIDs, SendKey, SendKeyMode string, AcceptOnlyListedKeys), all oracles and all keys. *)
From Refinery Require Import Lib.Base Model.Auth Proofs.Auth.

(* The source text of IsAccepted's condition and of every arm of GetReplaceKey's switch, and the order of
   steps in the six entry points, are the ones the model and the proofs were written for. *)
Theorem C24_source_matches_model : tables_ok = true /\ scripts_ok = true.
Proof. exact (conj tables_ok_true scripts_ok_true). Qed.
Print Assumptions C24_source_matches_model.

(* GetReplaceKey computes exactly the documented SendKeyMode table; its only error is a blank result. *)
Theorem C24_replace_is_documented_table : forall c key kid,
  get_replace_key c key kid = if nonempty (doc_out c key kid) then Some (doc_out c key kid) else None.
Proof. exact replace_table. Qed.
Print Assumptions C24_replace_is_documented_table.

(* Every entry point = the specification: accepted iff the CLIENT's key passes the AcceptOnlyListedKeys rule
   (and the outgoing key is not blank); the data then carries the table's key for the client's key. *)
Theorem C24_entry_refines_spec : forall e c kid_of key, enter e c kid_of key = spec c kid_of key.
Proof. exact enter_spec. Qed.
Print Assumptions C24_entry_refines_spec.

Theorem C24_uniform_across_protocols : forall e1 e2 c kid_of key, enter e1 c kid_of key = enter e2 c kid_of key.
Proof. intros e1 e2 c kid_of key. rewrite !enter_spec. reflexivity. Qed.
Print Assumptions C24_uniform_across_protocols.

Theorem C24_accepted_exactly_when : forall e c kid_of key,
  (exists k, enter e c kid_of key = Sent k) <->
  (accept_spec c key (key_id c kid_of key) = true /\ doc_out c key (key_id c kid_of key) <> ""%string).
Proof.
  intros e c kid_of key. rewrite enter_spec. split.
  - intros [k H]. apply spec_sent in H as (Ha & -> & Hk). auto.
  - intros [Ha Hd]. eexists. apply spec_sent. eauto.
Qed.
Print Assumptions C24_accepted_exactly_when.

(* for a key that is present the blank-key caveat disappears: accepted exactly by the listed-keys rule *)
Theorem C24_nonblank_accepted_exactly_when : forall e c kid_of key, key <> ""%string ->
  ((exists k, enter e c kid_of key = Sent k) <-> accept_spec c key (key_id c kid_of key) = true).
Proof.
  intros e c kid_of key Hk. rewrite C24_accepted_exactly_when. split; [tauto|].
  intros H. split; [exact H|]. apply nonempty_true, doc_out_nonblank, nonempty_true, Hk.
Qed.
Print Assumptions C24_nonblank_accepted_exactly_when.

Theorem C24_sends_documented_key : forall e c kid_of key k,
  enter e c kid_of key = Sent k -> k = doc_out c key (key_id c kid_of key).
Proof. intros e c kid_of key k. rewrite enter_spec, spec_sent. tauto. Qed.
Print Assumptions C24_sends_documented_key.

Theorem C24_never_blank : forall e c kid_of key k, enter e c kid_of key = Sent k -> k <> ""%string.
Proof. intros e c kid_of key k. rewrite enter_spec, spec_sent. tauto. Qed.
Print Assumptions C24_never_blank.

(* The pinned tree (before repo commit "fix: gRPC traces check AcceptOnlyListedKeys on the client's key"):
   acceptance ran on the already-replaced key, so with AcceptOnlyListedKeys + SendKeyMode all an unlisted key
   was accepted and its data forwarded with SendKey. *)
Theorem C24_pinned_grpc_trace_refuted :
  run PGrpcTrace witness_cfg (fun _ => ""%string) pinned_grpc_trace "intruder" "intruder" = Sent "sendkey"%string /\
  spec witness_cfg (fun _ => ""%string) "intruder" = Rejected.
Proof. exact pinned_grpc_trace_refuted. Qed.
Print Assumptions C24_pinned_grpc_trace_refuted.

(* Non-vacuity: the README scenario "only applications knowing a secret may send, central key preferred". *)
Local Open Scope string_scope.
Example C24_nonvacuous :
  let c := {| ak_receive := ["secret"]; ak_receive_ids := ["kid-1"]; ak_send := "central"; ak_mode := "listedonly";
              ak_only_listed := true |} in
  let kid_of := fun k => if String.eqb k "byid" then "kid-1" else "" in
  enter EGrpcTrace c kid_of "secret" = Sent "central" /\
  enter EV1Batch c kid_of "byid" = Sent "central" /\
  enter EOtlpLogsHttp c kid_of "central" = Sent "central" /\
  enter EGrpcLogs c kid_of "other" = Rejected /\
  enter EOtlpTraceHttp c kid_of "" = Rejected.
Proof. vm_compute. repeat split; reflexivity. Qed.
