(* C31 — the decision cache remembers what it promises.
   Statements; proofs in Proofs/SentCache.v: each theorem is closed by a lemma from there or by a few
   lines that instantiate one.
   Everywhere: [h] is the reason hash and [slots_of] the cuckoo sizing rule (arbitrary functions);
   [step]/[run] follow cuckooSentCache / CuckooTraceChecker / KeptReasonsCache; the order in which
   CheckSpan and CheckTrace consult their sources, the queue depth, the thresholds and the TTL are the
   values the translator read from the Go source (Gen.GenC31).
   From Proofs/SentCache.v: [cache_inv] is the invariant of reachable caches (a proper LRU within its
   capacity, reason indices within the table); [reasons_wf h] says an index handed out for a hash points at a
   string with that hash; [card T] is the number of distinct ids in T; [draining o] holds of Drain and
   Maintain. *)
From Refinery Require Import Lib.Base Gen.GenC31 Model.SentCache Proofs.SentCache.

(* Kept half, from a record.  After Record(x, kept, rate, reason), for EVERY history [ops] that does not
   re-record x and in which the number of distinct other trace ids recorded-kept or consulted stays below
   the smallest per-worker kept capacity in force (resizes included), CheckTrace x / CheckSpan x answer
   "kept" with the recorded rate (as stored: [store_rate] is the identity when the record holds a uint,
   mod 2^32 when it holds a uint32 - read from the source) and the recorded reason — unless x is (also) in the
   dropped filter / recent-drop set, in which case "dropped" wins (C31_dropped_wins).
   Hypotheses granted by the property: the invariant of reachable states (C31_invariant_reachable), no
   hash collision between [reason] and the reasons interned so far (the reasons cache indexes by a 64-bit
   hash), fewer than 2^32 - 1 distinct reasons. *)
Theorem C31_kept_recent_after_record :
  forall (h : string -> N) (slots_of : N -> N) c x rate reason d e l sp ops,
  cache_inv c -> reasons_wf h (rs c) -> (0 < kcap c)%N ->
  (forall s', In s' (r_data (rs c)) -> h s' = h reason -> s' = reason) ->
  (N.of_nat (length (r_data (rs c))) + 1 < two32)%N ->
  forallb (fun o => negb (records_kept x o)) ops = true ->
  (card (touched_others x ops) < min_cap (kcap c) ops)%N ->
  let c2 := run h slots_of (fst (step h slots_of c (RecKept x rate reason d e l sp))) ops in
  chk_check x (chk c2) = false ->
  (exists d' e' l' s', snd (step h slots_of c2 (ChkTrace x)) = AKept (store_rate rate) d' e' l' s' reason) /\
  (forall ann, recent_contains x c2 = false ->
     exists d' e' l' s', snd (step h slots_of c2 (ChkSpan x ann)) = AKept (store_rate rate) d' e' l' s' reason).
Proof. exact kept_recent_record. Qed.
Print Assumptions C31_kept_recent_after_record.

(* Kept half, from a consultation: a lookup that answered "kept" refreshes recency exactly like a record. *)
Theorem C31_kept_recent_after_consult :
  forall (h : string -> N) (slots_of : N -> N) c x (span : option N) rate d e l s reason ops,
  cache_inv c ->
  let o := match span with Some ann => ChkSpan x ann | None => ChkTrace x end in
  snd (step h slots_of c o) = AKept rate d e l s reason ->
  forallb (fun o => negb (records_kept x o)) ops = true ->
  (card (touched_others x ops) < min_cap (kcap c) ops)%N ->
  let c2 := run h slots_of (fst (step h slots_of c o)) ops in
  chk_check x (chk c2) = false ->
  (exists d' e' l' s', snd (step h slots_of c2 (ChkTrace x)) = AKept rate d' e' l' s' reason) /\
  (forall ann, recent_contains x c2 = false ->
     exists d' e' l' s', snd (step h slots_of c2 (ChkSpan x ann)) = AKept rate d' e' l' s' reason).
Proof. exact kept_recent_consult. Qed.
Print Assumptions C31_kept_recent_after_consult.

(* Resize keeps exactly the newest entries, in recency order, up to the new per-worker capacity. *)
Theorem C31_resize_keeps_newest :
  forall (h : string -> N) (slots_of : N -> N) c ksz dsz wc,
  cache_inv c -> per_worker ksz wc <> 0%N ->
  kept (fst (step h slots_of c (Resize ksz dsz wc))) = firstn (N.to_nat (per_worker ksz wc)) (kept c).
Proof. exact resize_newest. Qed.
Print Assumptions C31_resize_keeps_newest.

(* Dropped wins: an id present in the current dropped filter is answered "dropped" whatever the kept LRU holds. *)
Theorem C31_dropped_wins :
  forall (h : string -> N) (slots_of : N -> N) c x, chk_check x (chk c) = true ->
  snd (step h slots_of c (ChkTrace x)) = ADropped /\ forall ann, snd (step h slots_of c (ChkSpan x ann)) = ADropped.
Proof. exact dropped_wins. Qed.
Print Assumptions C31_dropped_wins.

(* Dropped half.  Record(x, dropped) with room in the add queue, any operations that do not drain,
   a drain, then ANY history with no rotation — or at most one rotation when the future filter already
   existed at the drain — still answers "dropped" for x (ideal filter: no false positives, no failed
   inserts; no queue overflow by hypothesis). *)
Theorem C31_dropped_until_rotation :
  forall (h : string -> N) (slots_of : N -> N) c x ops1 ops2,
  (N.of_nat (length (queue (chk c))) < add_queue_depth)%N ->
  forallb (fun o => negb (draining o)) ops1 = true ->
  let c1 := run h slots_of (fst (step h slots_of c (RecDropped x))) ops1 in
  let c2 := fst (step h slots_of c1 Drain) in
  (rotations h slots_of c2 ops2 = 0%nat \/ (fut (chk c1) <> None /\ (rotations h slots_of c2 ops2 <= 1)%nat)) ->
  let c3 := run h slots_of c2 ops2 in
  snd (step h slots_of c3 (ChkTrace x)) = ADropped /\ forall ann, snd (step h slots_of c3 (ChkSpan x ann)) = ADropped.
Proof. exact dropped_until_rotation. Qed.
Print Assumptions C31_dropped_until_rotation.

(* A rotation (the only way a drained id leaves the filter) happens only at a Maintain that finds the
   current filter above the "full" threshold, and then the filter holds more inserts than the nominal
   capacity it was created for, provided the third-party sizing leaves the usual 4 % slack
   (cuckoofilter.NewFilter doubles the buckets when capacity / slots would exceed 0.96). *)
Theorem C31_rotation_only_when_filled :
  forall k, chk_rotates k = true ->
  let g := cur (chk_drain k) in
  (100 * g_cap g <= 96 * g_slots g)%N -> (g_cap g < g_count g)%N.
Proof. exact rotation_only_when_filled. Qed.
Print Assumptions C31_rotation_only_when_filled.

(* ... and the filter installed by a rotation always exists (the Go code would install nil otherwise). *)
Theorem C31_rotation_installs_a_filter :
  forall (slots_of : N -> N) k, chk_rotates k = true ->
  (exists f, fut (chk_drain k) = Some f /\ cur (chk_maintain slots_of k) = f) \/
  (fut (chk_drain k) = None /\ cur (chk_maintain slots_of k) = new_gen slots_of (capa k)
   /\ load_gt half_num half_den (cur (chk_drain k)) = true).
Proof. exact rotation_installs_a_filter. Qed.
Print Assumptions C31_rotation_installs_a_filter.

(* ... and the rotation creates a fresh future generation, so that a drop recorded right after a rotation is held by
   both generations and (C31_dropped_until_rotation, second alternative) survives the next rotation too. *)
Theorem C31_rotation_creates_a_future :
  forall (slots_of : N -> N) k, chk_rotates k = true ->
  fut (chk_maintain slots_of k) = Some (new_gen slots_of (capa k)).
Proof. exact rotation_creates_a_future. Qed.
Print Assumptions C31_rotation_creates_a_future.

(* CheckSpan answers "dropped" right after the record, before any drain (recent-drop set). *)
Theorem C31_checkspan_sees_recent_drop :
  forall (h : string -> N) (slots_of : N -> N) c x ann,
  snd (step h slots_of (fst (step h slots_of c (RecDropped x))) (ChkSpan x ann)) = ADropped.
Proof.
  intros h slots_of c x ann. destruct span_order_recent_first as [r Hr]. cbn [step fst]. rewrite Hr.
  apply lookup_recent_wins. exact (recent_add_contains x c).
Qed.
Print Assumptions C31_checkspan_sees_recent_drop.

(* The invariant assumed above holds in every reachable state. *)
Theorem C31_invariant_reachable :
  forall (h : string -> N) (slots_of : N -> N) ksz dsz wc t0 ops,
  let c := run h slots_of (cache_init slots_of ksz dsz wc t0) ops in
  cache_inv c /\ reasons_wf h (rs c).
Proof.
  intros h slots_of ksz dsz wc t0 ops c.
  split; [apply run_inv, init_inv|apply run_rs_wf, reasons_init_wf].
Qed.
Print Assumptions C31_invariant_reachable.

(* Non-vacuity: capacity 2; a is recorded kept with a rate above 2^32, b and c follow, a is consulted in
   between, so b is the one evicted; d is dropped and drained. *)
Example C31_nonvacuous :
  let h := fun s : string => N.of_nat (String.length s) in
  let ops := [RecKept 1 4294967301 "rule-a" 3 0 0 3; RecKept 2 7 "r2" 1 0 0 1; ChkTrace 1;
              RecKept 3 9 "rule-a" 1 0 0 1; RecDropped 4; Drain; ChkTrace 1; ChkTrace 2; ChkTrace 4;
              Resize 1 16 1; ChkTrace 3; ChkTrace 1]%N in
  run_out h (fun c => 4 * c)%N (cache_init (fun c => 4 * c)%N 2 4 1 0) ops =
  [AUnit; AUnit; AKept (store_rate 4294967301) 3 0 0 3 "rule-a"; AUnit; AUnit; AState 1 16 None 0;
   AKept (store_rate 4294967301) 3 0 0 3 "rule-a"; ANotFound; ADropped; AUnit; ANotFound;
   AKept (store_rate 4294967301) 3 0 0 3 "rule-a"]%N.
Proof. vm_compute. reflexivity. Qed.
