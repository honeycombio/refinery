(* C26 — transmission delivers each event once, to its own destination, within limits.
   Statements; proofs in Proofs/Transmit.v and Proofs/TransmitCreate.v: each theorem is closed by a lemma from
   there, instantiated where the statement fixes a constant; C26_documented_constants by evaluating the generated
   constants.
   Vocabulary from Proofs/Transmit.v: [dev ds], all stamped events (event, enqueue instant) of the dispatched
   batches ds; [req_ok c ds q], what the property says about one request q (spelled out at C26_transmission).
   gen_cfg mb b is the model configuration whose constants (1 MB, 5 MB, header slack, retry bound,
   Retry-After bound, ticker divisor) are re-read from transmit/direct_transmit.go on every run. *)
From Refinery Require Import Lib.Base Model.Transmit Proofs.Transmit Model.TransmitCreate Proofs.TransmitCreate.
From Coq Require Import Permutation.

(* For every MaxBatchSize >= 1, BatchTimeout >= 4 ns, every stream of enqueues / clock advances /
   Stop (any destinations, any serialized sizes), every server behaviour stream and every set of
   malformed destinations, the run is defined (the size loop terminates) and:
   - exactly once: the enqueued events are, as a multiset, the events of the outgoing batches plus the
     events dropped as oversize plus the events still pending;
   - every outgoing batch (req_ok) is non-empty, addressed to the destination of each of its events,
     holds only events of at most 1 MB, has a body of at most 5 MB and at most MaxBatchSize events,
     is attempted at most twice, and leaves at an instant t with 4*(t - enqueue instant) < 5*BatchTimeout
     for each of its events (enqueue instants are those of the op list: third clause);
   - only events above 1 MB are dropped;
   - ups - downs of the queued-items gauge equals the number of pending events once every dispatched
     batch has its outcome. *)
Theorem C26_transmission : forall (mb b : Z) (beh : N -> list resp) (bad : N -> bool) (t0 : Z) (ops : list top),
  1 <= mb -> 4 <= b -> ops_ok ops = true ->
  let c := gen_cfg mb b in
  exists r ds, run c beh bad t0 ops = Some r /\
    Permutation (enqueued ops) (concat (map rq_evs (r_reqs r)) ++ r_over r ++ map fst (r_pending r)) /\
    (forall et, In et (dev ds) -> In et (stamps t0 ops)) /\
    Forall (req_ok c ds) (r_reqs r) /\
    Forall (fun e => maxEv c < esize e) (r_over r) /\
    r_ups r - downs (r_cnt r) = Z.of_nat (length (r_pending r)).
Proof. intros mb b beh bad t0 ops Hm Hb. exact (run_spec _ (gen_cfg_ok mb b Hm Hb) beh bad t0 ops). Qed.
Print Assumptions C26_transmission.

(* Stop sends everything pending: after Stop nothing is pending, every enqueued event is in exactly one
   outgoing batch or was dropped as oversize, and the gauge is back to zero. *)
Theorem C26_stop_flushes : forall (mb b : Z) (beh : N -> list resp) (bad : N -> bool) (t0 : Z) (ops : list top),
  1 <= mb -> 4 <= b -> ops_ok ops = true ->
  exists r, run (gen_cfg mb b) beh bad t0 (ops ++ [Stop]) = Some r /\ r_pending r = [] /\
    Permutation (enqueued ops) (concat (map rq_evs (r_reqs r)) ++ r_over r) /\
    r_ups r - downs (r_cnt r) = 0.
Proof. exact c26_stop. Qed.
Print Assumptions C26_stop_flushes.

(* the limits in the statement are the documented ones, and the source still has the shape the model copies *)
Theorem C26_documented_constants :
  maxBody (gen_cfg 1 4) = 5000000 /\ maxEv (gen_cfg 1 4) = 1000000 /\ ntries (gen_cfg 1 4) = 2%nat /\
  retryLim (gen_cfg 1 4) = 60 * 1000000000 /\ tdiv (gen_cfg 1 4) = 4 /\ gen_shape_ok = true.
Proof. exact (conj eq_refl (conj eq_refl (conj eq_refl (conj eq_refl (conj eq_refl gen_shape_holds))))). Qed.
Print Assumptions C26_documented_constants.

(* a second attempt happens only after a timeout or a 429/503 whose Retry-After sleep is in (0, 60 s) *)
Theorem C26_retry_only_when_asked : forall c rs r0 rest,
  rs = r0 :: rest -> (1 < fst (fst (tries c 2 rs)))%N ->
  r0 = RTimeout \/ exists code sl sts, r0 = RHttp code sl sts /\ (code = 429 \/ code = 503) /\ 0 < sl < retryLim c.
Proof. intros c rs r0 rest ->. apply retry_only_when_asked. Qed.
Print Assumptions C26_retry_only_when_asked.

(* EnqueueEvent's lookup-then-create for one new destination, as atomic steps (read-locked lookup; write-locked
   second look and create; append under the batch mutex), any number of goroutines, every schedule: at most one batch
   is ever created and everything appended anywhere is in the batch the map holds (what the ticker and Stop see). *)
Theorem C26_no_orphan_batch : forall (evs : list N) (sched : list nat),
  let s := crun true (cinit evs) sched in
  (length (made s) <= 1)%nat /\ concat (made s) = reachable s.
Proof. exact no_orphan_batch. Qed.
Print Assumptions C26_no_orphan_batch.

(* without the second look under the write lock two goroutines racing on a new destination orphan a batch:
   event 1 sits in a batch the map no longer holds *)
Example C26_create_without_recheck_refuted :
  let s := crun false (cinit [1; 2]%N) [0; 1; 0; 1; 0; 1]%nat in
  all_done s = true /\ made s = [[1%N]; [2%N]] /\ reachable s = [2%N].
Proof. vm_compute. repeat split; reflexivity. Qed.

Example C26_create_with_recheck_nonvacuous :
  let s := crun true (cinit [1; 2; 3]%N) [0; 1; 0; 1; 2; 0; 1; 2; 2]%nat in
  all_done s = true /\ reachable s = [1; 2; 3]%N.
Proof. vm_compute. split; reflexivity. Qed.

(* Non-vacuity: MaxBatchSize 2, BatchTimeout 1000 ns, ticker every 250 ns. e1 leaves by stale dispatch at the
   tick +1000 (age = BatchTimeout), e2 e3 fill a batch at +1250, e4 (1 000 001 bytes) is dropped on Stop,
   e5 leaves on Stop and is retried once after a 429 with Retry-After 1 s; two events pending at the Sync. *)
Example C26_nonvacuous :
  let e (n d : N) (s : Z) := {| eid := n; edest := d; esize := s |} in
  let ops := [Enq (e 1%N 7%N 100); Adv 1250; Enq (e 2%N 7%N 100); Enq (e 3%N 7%N 100); Enq (e 4%N 8%N 1000001);
              Enq (e 5%N 9%N 999999); Sync] in
  let beh := fun k => if N.eqb k 5%N then [RHttp 429 1000000000 []; RHttp 200 0 [202]] else [RHttp 200 0 [202; 202]] in
  ops_ok ops = true /\
  option_map (fun r => (map (fun q => (map eid (rq_evs q), rq_dest q, rq_attempts q, rq_time q)) (r_reqs r),
                        map eid (r_over r), r_sleeps r, r_syncs r, r_ups r - downs (r_cnt r)))
             (run (gen_cfg 2 1000) beh (fun _ => false) 0 (ops ++ [Stop])) =
  Some ([([1%N], 7%N, 1%N, 1000); ([2%N; 3%N], 7%N, 1%N, 1250); ([5%N], 9%N, 2%N, 1250)], [4%N], [1000000000], [2], 0).
Proof. vm_compute. split; reflexivity. Qed.
