(* C25 - query endpoints require the configured token.
   Statements; each is closed by a theorem of Proofs/Query.v or by a few lines that use its lemmas.

   [serve required clean method path hdr] dispatches a request through the gorilla/mux routing table that
   tools/translate extracted verbatim from LnS / AddOTLPMuxxer of the working tree (Gen/GenC25.v: routers,
   sub-routers with prefix and methods, middlewares, routes, in registration order) and applies
   queryTokenChecker where the table installs it.  [required] = QueryAuthToken, [hdr] = first value of the
   X-Honeycomb-Refinery-Query header ("" when absent).  The statements hold for ALL tokens, methods and paths. *)
From Refinery Require Import Lib.Base Model.Query Proofs.Query.

(* the extracted table: every route running a config/placement-revealing handler and every route below /query/
   is behind queryTokenChecker and restricted to the non-empty method list extracted for the /query/ sub-router;
   the checker's source is exactly the modelled text and never mentions the request method; its error is a 4xx *)
Theorem C25_routing_table_guards_query : table_ok = true.
Proof. exact table_ok_true. Qed.
Print Assumptions C25_routing_table_guards_query.

(* the check passes exactly for a non-empty configured token and a byte-identical header: prefixes,
   extensions, case variants, padded tokens and the empty token all fail *)
Theorem C25_token_check_exact : forall required hdr,
  authorized required hdr = true <-> required <> ""%string /\ hdr = required.
Proof. exact authorized_iff. Qed.
Print Assumptions C25_token_check_exact.

(* whatever the method and path: a handler's answer comes back only for an authorized request ... *)
Theorem C25_data_only_when_authorized : forall required clean m p hdr h,
  serve required clean m p hdr = QData h -> required <> ""%string /\ hdr = required.
Proof. exact data_only_when_authorized. Qed.
Print Assumptions C25_data_only_when_authorized.

(* ... for EVERY method: a method the extracted table does not list for the /query/ sub-router never reaches a
   revealing handler at all (and table_ok demands that the checker's source never looks at the method, so for the
   listed ones the verdict above is method-independent) *)
Theorem C25_unlisted_method_no_data : forall required clean m p hdr h,
  ~ In m query_methods -> In h sensitive -> serve required clean m p hdr <> QData h.
Proof. exact unlisted_method_no_data. Qed.
Print Assumptions C25_unlisted_method_no_data.

(* ... and no unguarded route runs one of the revealing handlers *)
Theorem C25_sensitive_never_unguarded : forall required clean m p hdr h,
  serve required clean m p hdr = QOther h -> ~ In h sensitive.
Proof. exact sensitive_never_unguarded. Qed.
Print Assumptions C25_sensitive_never_unguarded.

(* every documented query endpoint answers an authorized request and refuses every other one *)
Theorem C25_endpoints_answer_authorized : forall required m p hdr h,
  spec_endpoint m p = Some h -> authorized required hdr = true -> serve required true m p hdr = QData h.
Proof. intros required m p hdr h S A. rewrite (documented_endpoints_serve required m p hdr h S), A. reflexivity. Qed.
Print Assumptions C25_endpoints_answer_authorized.

Theorem C25_endpoints_refuse_others : forall required m p hdr h,
  spec_endpoint m p = Some h -> authorized required hdr = false ->
  serve required true m p hdr = QDenied (fst (denied_reply required hdr)) (snd (denied_reply required hdr)).
Proof. intros required m p hdr h S A. rewrite (documented_endpoints_serve required m p hdr h S), A. reflexivity. Qed.
Print Assumptions C25_endpoints_refuse_others.

(* a refusal is the fixed reply: status 400 and constant text around the client's OWN token ... *)
Theorem C25_refusal_is_fixed_text : forall required hdr,
  denied_reply required hdr =
  (400%N,
   if nonempty required
   then ("{""source"":""refinery"",""error"":""unknown API key - check your credentials: token " ++
         ((hdr ++ " found in X-Honeycomb-Refinery-Query not authorized for query") ++ """}"))%string
   else "{""source"":""refinery"",""error"":""unknown API key - check your credentials: /query endpoint is not authorized for use (specify QueryAuthToken in config)""}"%string).
Proof.
  intros required hdr. unfold denied_reply. destruct (nonempty required); [|vm_compute; reflexivity].
  unfold err_reply, sprintf2. cbn. reflexivity.
Qed.
Print Assumptions C25_refusal_is_fixed_text.

(* ... so what an unauthorized client sees does not depend on the configured token (beyond "is one configured"),
   and the sampler rules, config metadata and peers are not even inputs of the answer *)
Theorem C25_refusal_reveals_nothing : forall r1 r2 clean m p hdr,
  nonempty r1 = nonempty r2 -> authorized r1 hdr = false -> authorized r2 hdr = false ->
  serve r1 clean m p hdr = serve r2 clean m p hdr.
Proof.
  intros r1 r2 clean m p hdr Hn A1 A2. unfold serve.
  rewrite A1, A2, (denied_reply_indep r1 r2 hdr Hn). reflexivity.
Qed.
Print Assumptions C25_refusal_reveals_nothing.

Local Open Scope string_scope.
Example C25_nonvacuous :
  serve "s3cret" true "GET" "/query/rules/json/prod" "s3cret" = QData "getSamplerRules" /\
  serve "s3cret" true "GET" "/query/rules/json/prod" "s3cre" = QDenied 400
    "{""source"":""refinery"",""error"":""unknown API key - check your credentials: token s3cre found in X-Honeycomb-Refinery-Query not authorized for query""}" /\
  serve "s3cret" true "GET" "/query/trace/abc" "S3CRET" <> QData "debugTrace" /\
  serve "" true "GET" "/query/configmetadata" "" <> QData "getConfigMetadata" /\
  serve "s3cret" true "POST" "/query/allrules/yaml" "s3cret" = QOther "proxy" /\
  serve "s3cret" true "OPTIONS" "/query/trace/abc" "" = QOther "proxy" /\
  query_methods = ["GET"].
Proof. vm_compute. repeat split; try reflexivity; discriminate. Qed.
