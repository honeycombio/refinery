(* C21 — trace identity and root status follow the ID-field configuration.
   Statements; each is closed by a theorem of Proofs/TraceId.v or by a few lines of its own (those of the two
   clauses about the configured trace-ID fields use the [first_nonempty] lemmas from there).

   The subject of the theorems is the model instantiated with what the translator extracted from
   types/payload.go (coq/Gen/GenC21.v): the reserved metadata field table with the expected type of
   every entry, the names of meta.trace_id / meta.signal_type / meta.refinery.root, the "log" signal
   value, the "meta." prefix, and the presence of the configured-order selection in both
   extraction paths.  [gen_is_std] / [gen_structure] stop compiling when any of them changes. *)
From Refinery Require Import Lib.Base Model.TraceId Proofs.TraceId.
From Refinery Require Import Gen.GenC21.
Local Open Scope string_scope.
Local Open Scope list_scope.

Definition gen_consts : list (string * string) :=
  [("MetaSignalType", c_MetaSignalType); ("MetaTraceID", c_MetaTraceID); ("MetaAnnotationType", c_MetaAnnotationType);
   ("MetaRefineryProbe", c_MetaRefineryProbe); ("MetaRefineryRoot", c_MetaRefineryRoot);
   ("MetaRefineryIncomingUserAgent", c_MetaRefineryIncomingUserAgent);
   ("MetaRefineryLocalHostname", c_MetaRefineryLocalHostname); ("MetaStressed", c_MetaStressed);
   ("MetaRefineryReason", c_MetaRefineryReason); ("MetaRefinerySendReason", c_MetaRefinerySendReason);
   ("MetaSpanEventCount", c_MetaSpanEventCount); ("MetaSpanLinkCount", c_MetaSpanLinkCount);
   ("MetaSpanCount", c_MetaSpanCount); ("MetaEventCount", c_MetaEventCount);
   ("MetaRefineryOriginalSampleRate", c_MetaRefineryOriginalSampleRate);
   ("MetaRefineryFinalSampleRate", c_MetaRefineryFinalSampleRate); ("MetaRefinerySampleKey", c_MetaRefinerySampleKey)].

(* one row of the Go map literal  Meta…: stringField(…) | boolField(…) | int64Field(…) *)
Definition gen_row (r : string * string) : option (string * mkind) :=
  match slookup (fst r) gen_consts with
  | None => None
  | Some name =>
      if String.prefix "stringField(" (snd r) then Some (name, MString)
      else if String.prefix "boolField(" (snd r) then Some (name, MBool)
      else if String.prefix "int64Field(" (snd r) then Some (name, MInt)
      else None
  end.
Definition gen_metas : list (option (string * mkind)) := map gen_row metadata_fields_raw.

Definition gen_cfg (tn pn : list string) : idcfg :=
  {| trace_names := tn; parent_names := pn;
     metas := flat_map (fun o => match o with Some e => [e] | None => [] end) gen_metas;
     k_trace_id := c_MetaTraceID; k_signal := c_MetaSignalType; k_root := c_MetaRefineryRoot;
     log_value := log_value_bytes; meta_prefix := meta_prefix_bytes |}.

Lemma gen_is_std : forall tn pn, gen_cfg tn pn = std_cfg tn pn.
Proof. reflexivity. Qed.

Lemma gen_structure :
  forallb (fun o => match o with Some _ => true | None => false end) gen_metas
  && String.eqb log_value_map log_value_bytes
  && bytes_uses_configured_order && bytes_applies_field_id_last && map_uses_configured_order
  && process_event_uses_extracted_id_and_root = true.
Proof. reflexivity. Qed.

(* the documented defaults of IDFields.TraceNames / ParentNames (struct tags of config.IDFieldsConfig),
   which the driver takes as the configured lists when the operator's file sets none *)
Lemma gen_id_field_defaults :
  id_fields_config =
  [("TraceNames", ["TraceNames"; "[""trace.trace_id"",""traceId""]"]);
   ("ParentNames", ["ParentNames"; "[""trace.parent_id"",""parentId""]"])].
Proof. reflexivity. Qed.

(* closed by conversion: [table_ok] does not look at the two name lists and computes to true on the table
   of Gen/GenC21.v *)
Lemma gen_table_ok : forall tn pn, table_ok (gen_cfg tn pn) = true.
Proof. reflexivity. Qed.

(* The implementation model meets the specification, on every ingestion path.
   For every TraceNames / ParentNames configuration whose names are not reserved metadata names and
   do not overlap, and every event with unique keys (any number of fields, any order, any types)
   that carries no value under Refinery's own root flag and no binary value under a reserved string
   name: *)

(* /1/batch (msgpack and JSON) and OTLP msgpack: fields scanned in wire order *)
Theorem C21_batch_path_meets_spec : forall tn pn fs,
  cfg_ok (gen_cfg tn pn) = true -> ev_ok (gen_cfg tn pn) fs = true ->
  outcome_bytes (gen_cfg tn pn) fs = spec_outcome (gen_cfg tn pn) fs.
Proof. intros tn pn fs Hc He. exact (bytes_path_spec _ fs Hc (gen_table_ok tn pn) He). Qed.
Print Assumptions C21_batch_path_meets_spec.

(* /1/events JSON and OTLP maps: fields visited in Go map iteration order, i.e. in ANY order *)
Theorem C21_map_path_meets_spec : forall tn pn fs,
  cfg_ok (gen_cfg tn pn) = true -> ev_ok (gen_cfg tn pn) fs = true ->
  outcome_map (gen_cfg tn pn) fs = spec_outcome (gen_cfg tn pn) fs.
Proof. intros tn pn fs Hc He. exact (map_path_spec _ fs Hc (gen_table_ok tn pn) He). Qed.
Print Assumptions C21_map_path_meets_spec.

(* independence of field order: any permutation, on either path, and across paths *)
Theorem C21_order_independent : forall tn pn fs fs',
  cfg_ok (gen_cfg tn pn) = true -> ev_ok (gen_cfg tn pn) fs = true -> Permutation.Permutation fs fs' ->
  outcome_bytes (gen_cfg tn pn) fs' = outcome_bytes (gen_cfg tn pn) fs /\
  outcome_map (gen_cfg tn pn) fs' = outcome_map (gen_cfg tn pn) fs /\
  outcome_map (gen_cfg tn pn) fs' = outcome_bytes (gen_cfg tn pn) fs.
Proof. intros tn pn fs fs' Hc He P. exact (order_independent _ fs fs' Hc (gen_table_ok tn pn) He P). Qed.
Print Assumptions C21_order_independent.

(* independence of typing and encoding: two events holding the same strings under the same names
   (whatever the types of all other values: JSON numbers vs msgpack ints, nil, maps, ...) get the
   same outcome on every path *)
Theorem C21_encoding_independent : forall tn pn fs fs',
  cfg_ok (gen_cfg tn pn) = true -> ev_ok (gen_cfg tn pn) fs = true -> ev_ok (gen_cfg tn pn) fs' = true ->
  (forall k, str_at k fs = str_at k fs') ->
  outcome_bytes (gen_cfg tn pn) fs = outcome_bytes (gen_cfg tn pn) fs' /\
  outcome_map (gen_cfg tn pn) fs = outcome_map (gen_cfg tn pn) fs' /\
  outcome_bytes (gen_cfg tn pn) fs = outcome_map (gen_cfg tn pn) fs'.
Proof. intros tn pn fs fs' Hc He He' H. exact (paths_agree _ fs fs' Hc (gen_table_ok tn pn) He He' (fun k _ => H k)). Qed.
Print Assumptions C21_encoding_independent.

(* The specification says what the property says: *)
(* in a trace exactly when meta.trace_id or a configured trace-ID field holds a non-empty string *)
Theorem C21_membership : forall c fs,
  is_empty (spec_tid c fs) = false <->
  (is_empty (str_at (k_trace_id c) fs) = false \/
   exists n, In n (trace_names c) /\ is_empty (str_at n fs) = false).
Proof.
  intros c fs. unfold spec_tid. destruct (is_empty (str_at (k_trace_id c) fs)) eqn:E.
  - rewrite (first_nonempty_some (fun n => str_at n fs)). split; [intros H; right; exact H|].
    intros [H|H]; [discriminate|exact H].
  - split; [intros _; left; reflexivity|intros _; exact E].
Qed.
Print Assumptions C21_membership.

(* the trace ID is meta.trace_id when that holds a non-empty string ... *)
Theorem C21_meta_trace_id_first : forall c fs,
  is_empty (str_at (k_trace_id c) fs) = false -> spec_tid c fs = str_at (k_trace_id c) fs.
Proof. intros c fs E. unfold spec_tid. rewrite E. reflexivity. Qed.
Print Assumptions C21_meta_trace_id_first.

(* ... otherwise the value of the first configured field, in CONFIGURED order, that holds one *)
Theorem C21_first_in_configured_order : forall c fs i n,
  is_empty (str_at (k_trace_id c) fs) = true ->
  nth_error (trace_names c) i = Some n -> is_empty (str_at n fs) = false ->
  (forall j m, (j < i)%nat -> nth_error (trace_names c) j = Some m -> is_empty (str_at m fs) = true) ->
  spec_tid c fs = str_at n fs.
Proof.
  intros c fs i n E Hn He Hlt. unfold spec_tid. rewrite E.
  exact (first_nonempty_nth (fun n => str_at n fs) (trace_names c) i n Hn He Hlt).
Qed.
Print Assumptions C21_first_in_configured_order.

(* root exactly when in a trace, no configured parent-ID field holds a non-empty string, not a log *)
Theorem C21_root : forall c fs,
  spec_root c fs = true <->
  (is_empty (spec_tid c fs) = false /\
   (forall n, In n (parent_names c) -> is_empty (str_at n fs) = true) /\
   String.eqb (str_at (k_signal c) fs) (log_value c) = false).
Proof.
  intros c fs. unfold spec_root. rewrite !andb_true_iff, !negb_true_iff, forallb_forall. tauto.
Qed.
Print Assumptions C21_root.

(* The one ingestion path that does not meet the statement (known finding).
   /1/events with a msgpack body is decoded loosely (bin -> Go string) before extraction, so a binary
   value in an ID field is taken as a string there and nowhere else.  The faithful model refutes the
   full statement for that path; the statement holds on it for events without binary ID values. *)
Theorem C21_events_msgpack_bin_refuted :
  exists c fs, cfg_ok c = true /\ table_ok c = true /\ ev_ok c fs = true /\
               outcome_bytes c fs = spec_outcome c fs /\
               outcome_loose c fs <> spec_outcome c fs.
Proof.
  exists (std_cfg ["trace.trace_id"] ["trace.parent_id"]), [("trace.trace_id", VBin "a")].
  vm_compute. repeat split; try reflexivity. discriminate.
Qed.
Print Assumptions C21_events_msgpack_bin_refuted.

Theorem C21_events_msgpack_partial : forall tn pn fs,
  cfg_ok (gen_cfg tn pn) = true -> ev_ok (gen_cfg tn pn) fs = true -> no_bin_ids (gen_cfg tn pn) fs = true ->
  outcome_loose (gen_cfg tn pn) fs = spec_outcome (gen_cfg tn pn) fs.
Proof. intros tn pn fs Hc He Hb. exact (loose_path_partial _ fs Hc (gen_table_ok tn pn) He Hb). Qed.
Print Assumptions C21_events_msgpack_partial.

(* Non-vacuity: the finding's event (two configured trace-ID fields, the later-configured one first
   on the wire, an empty meta.trace_id in between, a parent field) satisfies the hypotheses and gets
   the configured-first ID on both paths. *)
Example C21_nonvacuous :
  let c := gen_cfg ["trace.trace_id"; "traceId"] ["trace.parent_id"] in
  let fs := [("traceId", VStr "b"); ("meta.trace_id", VStr ""); ("x", VInt);
             ("trace.trace_id", VStr "a"); ("trace.parent_id", VStr "p")] in
  cfg_ok c = true /\ ev_ok c fs = true /\
  outcome_bytes c fs = OSpan "a" false /\ outcome_map c (rev fs) = OSpan "a" false /\
  spec_outcome c fs = OSpan "a" false.
Proof. vm_compute. repeat split; reflexivity. Qed.
