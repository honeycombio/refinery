(* C08 — the rules sampler follows the documented rule semantics.
   Statements; each is closed by a lemma of Proofs/Rules.v, by a few lines instantiating one, or from the
   definitions of Model/RulesSpec.v alone; what the translator found is evaluated in place.

   Model/Rules.v transcribes the Go code (Init / setMatchesFunction and its per-operator closures,
   conditionMatchesValue / compare, extractValueFromSpan, both scope loops with their early exits
   and counters, the rule loop of GetSampleRate).  Model/RulesSpec.v states the documented
   semantics declaratively.  fmt's float formatting, strconv.ParseFloat and regexp are function
   parameters (all theorems hold for every choice); the downstream samplers and rand.Intn are the
   oracles [ds] and [draw].  [gen_tables_ok] (Proofs/Rules.v) compares the text of the Go arms, as
   Gen/GenC08.v holds it, with the text the model was transcribed from. *)
From Refinery Require Import Lib.Base Model.Values Model.Rules Model.RulesSpec Proofs.Rules.
Local Open Scope string_scope.
Local Open Scope Z_scope.

(* MAIN: for every configuration the documentation gives a meaning to (config validation:
   known operators and datatypes, convertible values, valid scope, SampleRate >= 1 unless Drop or
   a downstream sampler) and EVERY trace, the Go control flow returns exactly the documented
   outcome: the first rule in order whose conditions all match under the documented semantics is
   applied (downstream sampler / drop / rate N with keep iff draw = 0), else keep at rate 1. *)
Theorem C08_rules_refine_documented_semantics :
  forall fmtv parsef rx ds draw t rules,
    rules_wf fmtv parsef rx ds O rules = true ->
    run_rules fmtv parsef rx ds draw t O rules =
    spec_outcome fmtv ds draw (doc_match fmtv parsef rx) t rules.
Proof. exact rules_refines_spec. Qed.
Print Assumptions C08_rules_refine_documented_semantics.

(* The scope loops, with their checkedOnlyRoot early exits and the `matched` counter, compute the
   exists-span / forall-condition formulation — for EVERY rule with a valid scope, well-formed
   conditions or not. *)
Theorem C08_scope_loops_are_exists_forall :
  forall fmtv parsef rx t r,
    scope_of (r_scope r) <> ScInvalid ->
    rule_matched fmtv parsef rx t r =
    (spec_rule_matches fmtv (cmatch fmtv parsef rx) t r, spec_prefix r).
Proof. exact rule_matched_structural. Qed.
Print Assumptions C08_scope_loops_are_exists_forall.

(* What the two scopes mean (trace: each condition matched by some span, has-root-span at trace
   level; span: all conditions matched by one span). *)
Theorem C08_trace_scope_meaning :
  forall fmtv cm t r,
    scope_of (r_scope r) = ScTrace ->
    (spec_rule_matches fmtv cm t r = true <->
     forall c, In c (r_conds r) ->
       if is_hasroot c then has_root t = cval_bool fmtv (c_val c)
       else exists sp, In sp (t_spans t) /\ cm c (cond_value t sp c) = true).
Proof. exact spec_trace_scope_iff. Qed.
Print Assumptions C08_trace_scope_meaning.

Theorem C08_span_scope_meaning :
  forall fmtv cm t r,
    scope_of (r_scope r) = ScSpan ->
    (spec_rule_matches fmtv cm t r = true <->
     r_conds r = [] \/
     exists sp, In sp (t_spans t) /\
                forall c, In c (r_conds r) -> cm c (cond_value t sp c) = true).
Proof. exact spec_span_scope_iff. Qed.
Print Assumptions C08_span_scope_meaning.

(* "Fields uses the first field present; root. reads the root span; ?.NUM_DESCENDANTS is
   trace-level": the value extractValueFromSpan returns is [cond_value]. *)
Theorem C08_extract_is_first_present :
  forall t sp c, fst (extract t sp c) = cond_value t sp c.
Proof. intros t sp c. destruct (extract_spec t sp c) as (cor & -> & _). reflexivity. Qed.
Print Assumptions C08_extract_is_first_present.

(* Typed and untyped comparisons, string operators, in / not-in, matches: every Matches closure
   (or the untyped fallback) computes the uniform documented meaning. *)
Theorem C08_condition_meaning :
  forall fmtv parsef rx c ov,
    cond_wf fmtv parsef rx c = true ->
    cmatch fmtv parsef rx c ov = doc_match fmtv parsef rx c ov.
Proof. exact cmatch_doc. Qed.
Print Assumptions C08_condition_meaning.

(* "a condition on a field absent from every span does not match unless its operator is
   not-exists" — for every condition whatsoever (no well-formedness hypothesis). *)
Theorem C08_absent_only_not_exists :
  forall fmtv parsef rx c, cmatch fmtv parsef rx c None = true -> c_op c = OpNotExists.
Proof. exact cmatch_absent. Qed.
Print Assumptions C08_absent_only_not_exists.

Theorem C08_absent_field_rule_never_matches :
  forall fmtv parsef rx t r c,
    scope_of (r_scope r) <> ScInvalid ->
    In c (r_conds r) -> is_hasroot c = false -> c_op c <> OpNotExists ->
    (forall sp, In sp (t_spans t) -> cond_value t sp c = None) ->
    fst (rule_matched fmtv parsef rx t r) = false.
Proof.
  intros fmtv parsef rx t r c Hsc Hc Hh Hop Habs. rewrite (rule_matched_structural _ _ _ t r Hsc).
  apply (spec_unmatched_cond fmtv _ t r c Hc Hh). intros sp Hsp. rewrite (Habs sp Hsp).
  apply not_true_is_false. intros Hm. apply cmatch_absent in Hm. contradiction.
Qed.
Print Assumptions C08_absent_field_rule_never_matches.

(* "the first rule, in configuration order" *)
Theorem C08_first_rule_in_order :
  forall fmtv cm t rules i0 i r,
    spec_first fmtv cm t i0 rules = Some (i, r) <->
    exists k, i = (i0 + k)%nat /\ nth_error rules k = Some r /\
              spec_rule_matches fmtv cm t r = true /\
              forall j r', (j < k)%nat -> nth_error rules j = Some r' ->
                           spec_rule_matches fmtv cm t r' = false.
Proof. exact spec_first_iff. Qed.
Print Assumptions C08_first_rule_in_order.

Theorem C08_drop_rule_drops :
  forall ds draw i r,
    r_sampler r = false -> r_drop r = true -> o_keep (spec_apply ds draw i r) = false.
Proof. intros ds draw i r Hs Hd. unfold spec_apply. rewrite Hs, Hd. reflexivity. Qed.
Print Assumptions C08_drop_rule_drops.

Theorem C08_rate_rule_keeps_iff_draw_zero :
  forall ds draw i r,
    r_sampler r = false -> r_drop r = false ->
    o_rate (spec_apply ds draw i r) = r_rate r /\
    (o_keep (spec_apply ds draw i r) = true <-> draw i = 0).
Proof.
  intros ds draw i r Hs Hd. unfold spec_apply. rewrite Hs, Hd. split; [reflexivity|apply Z.eqb_eq].
Qed.
Print Assumptions C08_rate_rule_keeps_iff_draw_zero.

Theorem C08_downstream_sampler_delegates :
  forall ds draw i r d,
    r_sampler r = true -> ds i = Some d ->
    o_rate (spec_apply ds draw i r) = o_rate d /\ o_keep (spec_apply ds draw i r) = o_keep d /\
    o_key (spec_apply ds draw i r) = o_key d.
Proof. intros ds draw i r d Hs Hd. unfold spec_apply. rewrite Hs, Hd. repeat split. Qed.
Print Assumptions C08_downstream_sampler_delegates.

Theorem C08_no_rule_keeps_at_one :
  forall fmtv ds draw cm t rules,
    (forall r, In r rules -> spec_rule_matches fmtv cm t r = false) ->
    spec_outcome fmtv ds draw cm t rules = default_outcome /\
    o_rate default_outcome = 1 /\ o_keep default_outcome = true.
Proof.
  intros fmtv ds draw cm t rules H. unfold spec_outcome.
  apply (spec_first_none fmtv cm t rules O) in H. rewrite H. repeat split.
Qed.
Print Assumptions C08_no_rule_keeps_at_one.

(* The Go source of every operator arm is, textually, what Model/Rules.v transcribes (tables
   regenerated from the repository on every run). *)
Theorem C08_source_arms_as_modelled : gen_tables_ok = true.
Proof. vm_compute. reflexivity. Qed.
Print Assumptions C08_source_arms_as_modelled.

Definition ex_fmt (d : dy) : string := "1.5".
Definition ex_parse (s : string) : option dy := None.
Definition ex_rx (p : string) : option (string -> bool) := Some (fun s => str_contains p s).
Definition ex_ds (i : nat) : option outcome := None.
Definition ex_draw (i : nat) : Z := 0.
Definition mk (f : string) (o : string) (v : cval) (dt : string) : cond :=
  {| c_field := f; c_fields := []; c_opname := o; c_val := v; c_dtname := dt |}.
Definition ex_trace : trace :=
  let root := [("http.status", SInt 500); ("name", SStr "GET /health")] in
  {| t_spans := [[("http.status", SF64 (Dy 3 (-1)))]; root]; t_root := Some root |}.
Definition ex_rules : list rule :=
  [ (* absent field under a value-coerced operator: must NOT match *)
    {| r_name := "absent"; r_rate := 1; r_drop := true; r_scope := "";
       r_conds := [mk "missing" "does-not-contain" (CScalar (CStr "x")) "string"]; r_sampler := false |};
    (* span scope: one span must satisfy both *)
    {| r_name := "span"; r_rate := 1; r_drop := true; r_scope := "span";
       r_conds := [mk "http.status" ">=" (CScalar (CInt 500)) "int";
                   mk "name" "starts-with" (CScalar (CStr "POST")) ""]; r_sampler := false |};
    (* trace scope with has-root-span, root. prefix and the virtual field *)
    {| r_name := "trace"; r_rate := 10; r_drop := false; r_scope := "trace";
       r_conds := [mk "" "has-root-span" (CScalar (CBool true)) "";
                   mk "root.name" "matches" (CScalar (CStr "health")) "";
                   mk "?.NUM_DESCENDANTS" "=" (CScalar (CInt 2)) "int";
                   mk "http.status" "<" (CScalar (CF64 (Dy 2 0))) ""]; r_sampler := false |} ].

Example C08_nonvacuous :
  rules_wf ex_fmt ex_parse ex_rx ex_ds O ex_rules = true /\
  run_rules ex_fmt ex_parse ex_rx ex_ds ex_draw ex_trace O ex_rules =
    {| o_rate := 10; o_keep := true; o_reason := "rules/trace/trace"; o_key := "" |}.
Proof. vm_compute. split; reflexivity. Qed.
