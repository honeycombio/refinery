(* C11 — dynamic sample keys depend only on the trace's distinct field values.
   Statements; the proofs about the key are in Proofs/TraceKey.v, and each theorem is closed by a lemma
   from there or by a few lines instantiating one. The source shape, the legacy collision and the facts
   about the rate floor and the draw are checked here.
   Strings are lists of code points; [build fields uselen t] is traceKey.build of the source
   (returns key and count); [vals f t] are the rendered values field f takes over the spans.
   From Proofs/TraceKey.v: [all_present fs t] (every field of fs occurs in t), [all_dfree fs t]
   (no rendered value of these fields contains a delimiter, [dfree]), [root_ok rfs rs] (the root
   span rs carries every field of rfs, rendered without ','); [legacy_t1], [legacy_t2] are the two
   traces of C11_legacy_prevstr_refuted. *)
From Refinery Require Import Lib.Base Model.TraceKey Proofs.TraceKey.
From Refinery Require Gen.GenC11.
From Coq Require Import Permutation.

(* the translator found the constructs the model follows (delimiters, cap logic, type switch,
   root fields rendered like per-span values, whole floats as integers, span count, both sorts,
   and the floor/keep shape in all five samplers) *)
Theorem C11_source_shape :
  GenC11.key_delims = [GenC11.gen_bs [226; 128; 162]%N; ","%string] /\
  GenC11.root_prefix = "root."%string /\
  GenC11.cap_breaks_outer = true /\ GenC11.cap_counts_before_store = true /\
  GenC11.cap_is_max_key_length = true /\
  GenC11.first_value_always_written = true /\
  GenC11.root_uses_same_rendering = true /\ GenC11.float_whole_as_int = true /\
  GenC11.add_uses_append_value = true /\ GenC11.len_is_span_count = true /\
  GenC11.fields_sorted = true /\ GenC11.values_sorted = true /\
  GenC11.shape_dynamic = true /\ GenC11.shape_emadynamic = true /\ GenC11.shape_emathroughput = true /\
  GenC11.shape_windowedthroughput = true /\ GenC11.shape_totalthroughput = true.
Proof.
  (* by conversion on Gen/GenC11.v: if the source changes so that one of these values is extracted
     differently, [reflexivity] fails here *)
  repeat split; reflexivity.
Qed.
Print Assumptions C11_source_shape.

(* The key (and count) is determined by: the SET of rendered values of each non-root field,
   the root span's values of the root. fields, and the span count when UseTraceLength is set —
   for every field list and every pair of traces with fewer than maxKeyLength distinct values.
   (Stated for every initial prevStr, hence for the source before and after the fix.) *)
Theorem C11_key_determined : forall ip fields uselen t t',
  let nf := fst (prepare fields) in let rf := snd (prepare fields) in
  (total_distinct nf t < MAXK)%N ->
  (forall f, In f nf -> forall x, In x (vals f t) <-> In x (vals f t')) ->
  root_view rf t = root_view rf t' ->
  (uselen = true -> length (t_spans t) = length (t_spans t')) ->
  build_gen ip fields uselen t = build_gen ip fields uselen t'.
Proof. exact build_determined. Qed.
Print Assumptions C11_key_determined.

(* reordering spans *)
Theorem C11_key_perm : forall fields uselen t t',
  (total_distinct (fst (prepare fields)) t < MAXK)%N ->
  Permutation (t_spans t) (t_spans t') -> t_root t = t_root t' ->
  build fields uselen t = build fields uselen t'.
Proof.
  intros fields uselen t t' C P R. apply build_same_spans; [exact C| |exact R|intros _; apply Permutation_length, P].
  intros s. split; apply Permutation_in; [exact P|apply Permutation_sym, P].
Qed.
Print Assumptions C11_key_perm.

(* duplicating spans (any span list with the same set of spans); UseTraceLength off, because the
   span count is part of the key otherwise *)
Theorem C11_key_dup : forall fields t t',
  (total_distinct (fst (prepare fields)) t < MAXK)%N ->
  (forall s, In s (t_spans t) <-> In s (t_spans t')) -> t_root t = t_root t' ->
  build fields false t = build fields false t'.
Proof. intros fields t t' C S R. apply build_same_spans; [exact C|exact S|exact R|discriminate]. Qed.
Print Assumptions C11_key_dup.

(* Separation, for the source as it is now (first value always written): all non-root fields
   present in both traces, values free of '•' and ',', fewer than maxKeyLength distinct values:
   equal keys force equal value sets; i.e. a value one trace has and the other lacks gives
   different keys. *)
Theorem C11_key_separates : forall fields uselen uselen' t t',
  let nf := fst (prepare fields) in
  (total_distinct nf t < MAXK)%N -> (total_distinct nf t' < MAXK)%N ->
  all_present nf t -> all_present nf t' -> all_dfree nf t -> all_dfree nf t' ->
  fst (build fields uselen t) = fst (build fields uselen' t') ->
  forall f, In f nf -> forall x, In x (vals f t) <-> In x (vals f t').
Proof. exact build_separates. Qed.
Print Assumptions C11_key_separates.

Theorem C11_distinct_sets_distinct_keys : forall fields uselen t t' f x,
  let nf := fst (prepare fields) in
  (total_distinct nf t < MAXK)%N -> (total_distinct nf t' < MAXK)%N ->
  all_present nf t -> all_present nf t' -> all_dfree nf t -> all_dfree nf t' ->
  In f nf -> In x (vals f t) -> ~ In x (vals f t') ->
  fst (build fields uselen t) <> fst (build fields uselen t').
Proof.
  intros fields uselen t t' f x nf C C' P P' D D' Hf Hx Hnx E.
  exact (Hnx (proj1 (build_separates fields uselen uselen t t' C C' P P' D D' E f Hf x) Hx)).
Qed.
Print Assumptions C11_distinct_sets_distinct_keys.

(* … and the same for the root.-prefixed fields: with both root spans carrying every root field
   and values free of ',', equal keys force equal root values *)
Theorem C11_key_separates_root : forall fields uselen uselen' t t' rs rs',
  let nf := fst (prepare fields) in let rf := snd (prepare fields) in
  (total_distinct nf t < MAXK)%N -> (total_distinct nf t' < MAXK)%N ->
  all_present nf t -> all_present nf t' -> all_dfree nf t -> all_dfree nf t' ->
  t_root t = Some rs -> t_root t' = Some rs' -> root_ok rf rs -> root_ok rf rs' ->
  fst (build fields uselen t) = fst (build fields uselen' t') ->
  forall f, In f rf -> option_map render_root (sp_get f rs) = option_map render_root (sp_get f rs').
Proof. exact build_separates_root. Qed.
Print Assumptions C11_key_separates_root.

(* The pinned tree started the de-dup with prevStr = "": value sets {"", "a"} and {"a"} collide.
   (Finding C11-empty-string-swallowed; fixed in the repository, the fixed builder separates them.) *)
Theorem C11_legacy_prevstr_refuted :
  fst (build_gen (Some []) [u "f"] false legacy_t1) = fst (build_gen (Some []) [u "f"] false legacy_t2) /\
  In [] (vals (u "f") legacy_t1) /\ ~ In [] (vals (u "f") legacy_t2) /\
  fst (build_gen None [u "f"] false legacy_t1) <> fst (build_gen None [u "f"] false legacy_t2).
Proof.
  split; [vm_compute; reflexivity|]. split; [vm_compute; auto|]. split.
  - vm_compute. intros [H|[]]. discriminate.
  - vm_compute. discriminate.
Qed.
Print Assumptions C11_legacy_prevstr_refuted.

(* sampler: the rate is at least 1 whatever the dynsampler returns, it is the dynsampler's rate
   when that is >= 1, and of the [rate] possible draws of rand.Intn(rate) exactly one keeps *)
Theorem C11_rate_at_least_1 : forall d, 1 <= rate_floor d.
Proof.
  intros d. unfold rate_floor. destruct (d mod 18446744073709551616 <? 1) eqn:E; [lia|apply Z.ltb_ge in E; exact E].
Qed.
Print Assumptions C11_rate_at_least_1.

Theorem C11_rate_is_dynsampler_rate : forall d, 1 <= d < 18446744073709551616 -> rate_floor d = d.
Proof.
  intros d H. unfold rate_floor. rewrite Z.mod_small by lia.
  destruct (d <? 1) eqn:E; [apply Z.ltb_lt in E; lia|reflexivity].
Qed.
Print Assumptions C11_rate_is_dynsampler_rate.

Theorem C11_keep_one_draw_in_rate : forall r, (1 <= r)%N ->
  N.peano_rect (fun _ => N) 0%N (fun k acc => if keep_of (Z.of_N k) then (acc + 1)%N else acc) r = 1%N.
Proof.
  induction r as [|r IH] using N.peano_ind; intros H; [lia|].
  rewrite N.peano_rect_succ.
  destruct (N.eq_dec r 0) as [->|Hr].
  - reflexivity.
  - rewrite IH by lia. unfold keep_of. destruct (Z.eqb_spec (Z.of_N r) 0); [lia|reflexivity].
Qed.
Print Assumptions C11_keep_one_draw_in_rate.

(* Non-vacuity: the repository's own test vector, a permutation with a duplicate, a root field,
   and the empty-string pair now separated. *)
Example C11_nonvacuous :
  let sp1 : span := [(u "http.status_code", VInt 200); (u "request.path", VStr (u "/{slug}/home"));
                     (u "app.team.id", VFloat false 2 0 (u "2")); (u "important_field", VBool true)] in
  let t := {| t_spans := [sp1]; t_root := None |} in
  let fields := [u "http.status_code"; u "request.path"; u "app.team.id"; u "important_field"] in
  build fields true t =
    (u "2" ++ [BUL; COMMA] ++ u "200" ++ [BUL; COMMA] ++ u "true" ++ [BUL; COMMA] ++ u "/{slug}/home" ++ [BUL; COMMA] ++ u "1", 5%N) /\
  (total_distinct (fst (prepare fields)) t < MAXK)%N /\
  let a : span := [(u "f", VInt 404)] in let b : span := [(u "f", VInt 200); (u "service_name", VStr (u "x"))] in
  build [u "f"; u "root.service_name"] false {| t_spans := [a; b; a]; t_root := Some b |} =
  build [u "f"; u "root.service_name"] false {| t_spans := [b; a]; t_root := Some b |} /\
  fst (build [u "f"; u "root.service_name"] false {| t_spans := [b; a]; t_root := Some b |}) =
    u "200" ++ [BUL] ++ u "404" ++ [BUL; COMMA] ++ u "x" ++ [COMMA] /\
  fst (build [u "f"] false legacy_t1) <> fst (build [u "f"] false legacy_t2).
Proof. vm_compute. repeat split; try reflexivity; discriminate. Qed.
