(* C32 — TTL sets and maps agree on membership at every instant.
   The refinement is proved in Proofs/TTL.v; the facts about the specification are read off its
   definition here. *)
From Refinery Require Import Lib.Base Model.TTL Proofs.TTL.

(* Full statement: for every TTL >= 0, start instant, and history of adds, removals, queries and
   non-negative clock advances, every output of the implementation model (lazy cleanup,
   per-query comparisons exactly as in the Go code) equals the output of the specification in
   which ALL queries are derived from one predicate: "now <= time of most recent add + TTL". *)
Theorem C32_ttl_refines_spec : forall ttl t0 ops,
  0 <= ttl -> ops_ok ops = true -> trun ttl (tinit t0) ops = srun ttl (sinit t0) ops.
Proof. exact ttl_refines_spec. Qed.
Print Assumptions C32_ttl_refines_spec.

(* The specification itself: an entry is present exactly on [add, add+TTL] ... *)
Theorem C32_present_window : forall ttl sp k a v,
  NoDup (akeys (last sp)) -> alookup k (last sp) = Some (a, v) ->
  (alookup k (live_entries ttl sp) = Some (a, v) <-> snow sp <= a + ttl).
Proof.
  intros * Hnd L. unfold live_entries. rewrite (alookup_filter _ _ _ Hnd), L.
  unfold live. cbn [fst snd]. destruct (Z.leb_spec (snow sp) (a + ttl)); split; intros; try lia; congruence.
Qed.
Print Assumptions C32_present_window.

(* ... measured from the most recent add ... *)
Theorem C32_most_recent_add : forall ttl sp k v nw,
  let sp1 := fst (sstep ttl sp (Put k v)) in
  alookup k (live_entries ttl {| snow := nw; last := last sp1 |}) =
  if nw <=? snow sp + ttl then Some (snow sp, v) else None.
Proof.
  intros ttl sp k v nw. cbn [sstep fst last]. unfold live_entries. cbn [snow last]. rewrite filter_aset.
  unfold live at 1. cbn [fst snd].
  destruct (nw <=? snow sp + ttl); cbn [app alookup]; [rewrite N.eqb_refl; reflexivity|].
  apply alookup_aremove_eq.
Qed.
Print Assumptions C32_most_recent_add.

(* ... and membership test, listing and count agree at every instant. *)
Theorem C32_queries_agree : forall ttl sp k,
  (exists v, snd (sstep ttl sp (Get k)) = OGet (Some v)) <->
  (exists l, snd (sstep ttl sp Keys) = OKeys l /\ In k l).
Proof.
  intros *. cbn [sstep snd]. split.
  - intros [v H]. eexists; split; [reflexivity|]. apply In_akeys_alookup. intros E. rewrite E in H. discriminate.
  - intros (l & [= <-] & Hin). apply In_akeys_alookup in Hin.
    destruct (alookup k (live_entries ttl sp)) as [[a v]|]; [exists v; reflexivity|congruence].
Qed.
Print Assumptions C32_queries_agree.

Theorem C32_count_is_listing : forall ttl sp,
  exists l, snd (sstep ttl sp Keys) = OKeys l /\ snd (sstep ttl sp Len) = OLen (N.of_nat (length l)).
Proof.
  intros *. cbn [sstep snd]. eexists; split; [reflexivity|]. unfold akeys. rewrite map_length. reflexivity.
Qed.
Print Assumptions C32_count_is_listing.

(* Non-vacuity: a concrete history that queries at the exact expiry instant. *)
Example C32_nonvacuous :
  let ops := [Put 1 7; Advance 10; Get 1; Keys; Len; Advance 1; Get 1; Keys]%N in
  ops_ok ops = true /\
  trun 10 (tinit 0) ops =
    [ONone; ONone; OGet (Some 7%N); OKeys [1%N]; OLen 1; ONone; OGet None; OKeys []].
Proof. vm_compute. split; reflexivity. Qed.
