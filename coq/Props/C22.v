(* C22 — event timestamps are preserved exactly.
   Statements; each is closed by a theorem of Proofs/Timestamp.v, or by a line instantiating one.

   The subject of the theorems is the model instantiated with the facts the translator extracted
   from the Go source (coq/Gen/GenC22.v): the digit counts of route.parseEpochDigits, the order of
   the parsing attempts in route.getEventTime, and the encoder used by
   transmit.batchedEvent.MarshalMsg.  [gen_is_std] fails to compile when any of them changes. *)
From Refinery Require Import Lib.Base Model.Timestamp Proofs.TimestampText Proofs.Timestamp.
From Refinery Require Import Gen.GenC22.
Local Open Scope Z_scope.

Definition gen_cfg : ts_cfg :=
  {| min_digits := epoch_min_digits; max_digits := epoch_max_digits; sec_digits := epoch_sec_digits;
     pad_digits := epoch_pad_digits; digits_first := epoch_digits_tried_first;
     batch_prefers_msgp := batch_prefers_msgpack_time; uses_time_ext := marshal_uses_time_ext |}.

Lemma gen_is_std : gen_cfg = std_cfg.
Proof. reflexivity. Qed.

(* the JSON batch decoder copies each event's time string out of the pooled parser's buffer
   (a zero-copy alias would let a later request overwrite it before it is converted): the time is
   assigned through a string(...) conversion and the decoder does not use package unsafe *)
Lemma gen_time_string_copied : batch_time_string_copied && negb batch_decoder_uses_unsafe = true.
Proof. reflexivity. Qed.

(* Integer Unix epoch in the event-time header or a batch element's time field: ten digits of
   seconds followed by k = 0..9 digits of fraction (seconds, milliseconds, microseconds,
   nanoseconds and everything between).  For EVERY instant of the range that is expressible with k
   fractional digits, what a standard msgpack reader finds in the forwarded event is that instant. *)
Theorem C22_epoch_exact : forall k t,
  (k <= 9)%nat -> in_range t -> has_precision k t ->
  received gen_cfg (InText (render_epoch k t)) = Some t.
Proof. rewrite gen_is_std. intros k t Hk Hr Hp. exact (received_creq (CEpoch k t) (conj Hr (conj Hk Hp))). Qed.
Print Assumptions C22_epoch_exact.

(* RFC 3339 with 0..9 fractional digits and any zone offset within +-23:59 ("Z" or numeric). *)
Theorem C22_rfc3339_exact : forall k off zulu t,
  (k <= 9)%nat -> -1440 < off < 1440 -> in_range t -> has_precision k t ->
  received gen_cfg (InText (render_rfc k off zulu t)) = Some t.
Proof.
  rewrite gen_is_std. intros k off zulu t Hk Hoff Hr Hp.
  exact (received_creq (CRfc k off zulu t) (conj Hr (conj Hk (conj Hoff Hp)))).
Qed.
Print Assumptions C22_rfc3339_exact.

(* msgpack timestamp 32 / 64 / 96 in a msgpack batch. *)
Theorem C22_msgpack_exact : forall fmt t,
  in_range t -> (fmt = 32%N -> snd t = 0 /\ fst t < 2 ^ 32) -> (fmt = 64%N -> fst t < 2 ^ 34) ->
  received gen_cfg (InMsgp (client_mts fmt t)) = Some t.
Proof. rewrite gen_is_std. intros fmt t Hr H32 H64. exact (received_creq (CMsgp fmt t) (conj Hr (conj H32 H64))). Qed.
Print Assumptions C22_msgpack_exact.

(* Beyond the stated range: ANY well-formed msgpack timestamp (all of int64 seconds) is forwarded as
   the same instant, or the request is refused when its nanoseconds field is invalid. *)
Theorem C22_msgpack_any : forall x,
  mts_wf x = true ->
  match decode_mts x with
  | Some t => received gen_cfg (InMsgp x) = Some t
  | None => received gen_cfg (InMsgp x) = None
  end.
Proof. rewrite gen_is_std. intros x Hwf. rewrite received_mts by exact Hwf. destruct (decode_mts x); reflexivity. Qed.
Print Assumptions C22_msgpack_any.

(* The re-encoding step alone: AppendTimeExt followed by a standard reader is the identity on every
   instant with int64 seconds, and always produces a well-formed extension. *)
Theorem C22_reencode_identity : forall sec ns,
  - 2 ^ 63 <= sec < 2 ^ 63 -> 0 <= ns < 10 ^ 9 ->
  decode_mts (encode_mts (sec, ns)) = Some (sec, ns) /\ mts_wf (encode_mts (sec, ns)) = true.
Proof. exact mts_roundtrip. Qed.
Print Assumptions C22_reencode_identity.

(* Batches and overlapping requests: whatever the mix of formats, every event of every request is
   forwarded with its own instant (the model has no state shared between events or requests; the
   correspondence drives overlapping requests against the real handlers to check the code has none). *)
Theorem C22_batch_pointwise : forall reqs,
  Forall creq_ok reqs ->
  forward_batch gen_cfg (map creq_input reqs) = map (fun r => Some (creq_instant r)) reqs.
Proof. rewrite gen_is_std. exact batch_pointwise. Qed.
Print Assumptions C22_batch_pointwise.

(* Non-vacuity: the value of the finding, a 13-digit millisecond epoch, satisfies the hypotheses and
   comes out exact; so do a nanosecond RFC 3339 time with an offset and a timestamp-96. *)
Example C22_nonvacuous :
  let t := (1535589382, 641000000) in
  in_range t /\ has_precision 3 t /\
  string_of_list_ascii (render_epoch 3 t) = "1535589382641"%string /\
  received gen_cfg (InText (render_epoch 3 t)) = Some t /\
  string_of_list_ascii (render_rfc 9 (-480) false (1535589382, 641000032)) = "2018-08-29T16:36:22.641000032-08:00"%string /\
  received gen_cfg (InText (render_rfc 9 (-480) false (1535589382, 641000032))) = Some (1535589382, 641000032) /\
  received gen_cfg (InMsgp (client_mts 96 (9999999999, 999999999))) = Some (9999999999, 999999999).
Proof. unfold in_range, has_precision. vm_compute. repeat split; try reflexivity; discriminate. Qed.
