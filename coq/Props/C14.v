(* C14 — each trace is sampled by the sampler configured for its destination.
   Statements; each theorem is closed by a lemma of Proofs/SamplerSel.v or by a few lines on the
   definitions, instantiating one where one is needed; the finite checks (what the translator found, the example) are evaluated in place.
   Strings are byte lists; [rules] is the Samplers map of the rules file; [dest] is what an event
   arrives with (API key, environment name resolved for it, dataset); [classic_config_key] and
   [classic_ingest_key] (Proofs/SamplerSel.v) are the two shapes of a classic API key. *)
From Refinery Require Import Lib.Base Lib.Strs_samp Model.SamplerSel Proofs.SamplerSel.
From Refinery Require Gen.GenC14.

(* the translator found the constructs the model follows: the two key shapes, DetermineSamplerKey,
   both lookups with the __default__ fallback, NewCoreFieldsUnmarshaler, processSpan's trace
   creation, makeDecision's selection + memoisation, the factory lookup, GetKeyFields *)
Theorem C14_source_shape :
  GenC14.legacy_switch = [["32"]; ["64"]; ["default"]]%string /\
  GenC14.legacy_classic_is_32_lower_hex = true /\ GenC14.legacy_ingest_is_64_hcxic = true /\
  GenC14.sampler_key_shape = true /\ GenC14.lookup_config_shape = true /\
  GenC14.lookup_fields_shape = true /\ GenC14.ingest_shape = true /\ GenC14.decide_shape = true /\
  GenC14.memoize_before_decision = true /\ GenC14.trace_takes_first_span_destination = true /\
  GenC14.factory_uses_lookup = true /\ GenC14.key_fields_shape = true /\ GenC14.empty_names_skipped = true /\
  GenC14.root_prefix = "root."%string /\ GenC14.computed_prefix = "?."%string /\
  GenC14.sampler_choice_order =
    [["v.DeterministicSampler != nil"]; ["v.RulesBasedSampler != nil"]; ["v.DynamicSampler != nil"];
     ["v.EMADynamicSampler != nil"]; ["v.EMAThroughputSampler != nil"];
     ["v.WindowedThroughputSampler != nil"]; ["v.TotalThroughputSampler != nil"]; ["default"]]%string.
Proof.
  (* by conversion on Gen/GenC14.v: if the source changes so that one of these values is extracted
     differently, [reflexivity] fails here *)
  repeat split; reflexivity.
Qed.
Print Assumptions C14_source_shape.

(* Key classification, all byte strings: classic exactly for 32 lower-case hex digits or
   "hc"[a-z]"ic_" + 58 of [0-9a-z]; everything else (environment keys, malformed keys) is not. *)
Theorem C14_key_classification : forall k,
  is_legacy k = true <-> classic_config_key k \/ classic_ingest_key k.
Proof. exact is_legacy_spec. Qed.
Print Assumptions C14_key_classification.

Theorem C14_other_lengths_not_classic : forall k,
  length k <> 32%nat -> length k <> 64%nat -> is_legacy k = false.
Proof.
  intros k H1 H2. unfold is_legacy. apply Nat.eqb_neq in H1, H2. rewrite H1, H2. reflexivity.
Qed.
Print Assumptions C14_other_lengths_not_classic.

(* environment-scoped (non-classic) key: the sampler configured for the environment name,
   else __default__ — whatever the dataset and DatasetPrefix *)
Theorem C14_env_key_uses_environment : forall prefix r first later,
  is_legacy (d_key first) = false ->
  decide_sampler prefix r first later =
  match rfind (d_env first) r with Some d => Some d | None => rfind DEFAULT r end.
Proof.
  intros prefix r first later H. unfold decide_sampler, trace_dest.
  rewrite sampler_key_env by exact H. reflexivity.
Qed.
Print Assumptions C14_env_key_uses_environment.

(* classic key: the sampler configured for the dataset, prefixed with "DatasetPrefix." when set,
   else __default__ — whatever the environment *)
Theorem C14_classic_key_uses_dataset : forall prefix r first later,
  is_legacy (d_key first) = true ->
  let name := match prefix with [] => d_dataset first | _ => prefix ++ [DOT] ++ d_dataset first end in
  decide_sampler prefix r first later =
  match rfind name r with Some d => Some d | None => rfind DEFAULT r end.
Proof.
  intros prefix r first later H. unfold decide_sampler, trace_dest.
  rewrite sampler_key_classic by exact H. reflexivity.
Qed.
Print Assumptions C14_classic_key_uses_dataset.

(* the selected definition is one the rules file holds: under the selected name, or under
   __default__ and then only because the name has no sampler *)
Theorem C14_selected_from_rules : forall r name d,
  lookup r name = Some d -> In (name, d) r \/ (rfind name r = None /\ In (DEFAULT, d) r).
Proof.
  intros r name d. destruct (rfind name r) as [e|] eqn:F.
  - rewrite (lookup_exact _ _ _ F). intros [= <-]. left. apply rfind_In, F.
  - rewrite (lookup_default _ _ F). intros H. right. split; [reflexivity|apply rfind_In, H].
Qed.
Print Assumptions C14_selected_from_rules.

(* the same selection decides which fields are extracted at ingestion of the trace's first event *)
Theorem C14_ingest_decide_agree : forall prefix r first later,
  ingest_fields prefix r first = fst (sampler_reads (decide_sampler prefix r first later)).
Proof. exact ingest_decide_agree. Qed.
Print Assumptions C14_ingest_decide_agree.

(* every field the selected sampler reads (all key fields on the root span, the non-root ones on
   every span) is among the extracted ones *)
Theorem C14_reads_available : forall prefix r first later f,
  let s := decide_sampler prefix r first later in
  In f (fst (sampler_reads s)) \/ In f (snd (sampler_reads s)) ->
  In f (ingest_fields prefix r first).
Proof. exact reads_available. Qed.
Print Assumptions C14_reads_available.

(* and every field named by the definition is extracted: root.x under the bare name x, plain
   fields as they are (computed "?." fields do not exist in events; empty names are skipped) *)
Theorem C14_root_fields_extracted : forall fields f,
  In f fields -> has_prefix ROOTP14 f = true ->
  In (skipn (length ROOTP14) f) (fst (get_key_fields fields)).
Proof.
  intros fields f Hin Hp. apply get_key_fields_fst_In. left. apply root_fields_In; assumption.
Qed.
Print Assumptions C14_root_fields_extracted.

Theorem C14_plain_fields_extracted : forall fields f,
  In f fields -> f <> [] -> has_prefix ROOTP14 f = false -> has_prefix COMPP f = false ->
  In f (fst (get_key_fields fields)).
Proof.
  intros fields f Hin Hne H1 H2. apply get_key_fields_fst_In. right. apply nonroot_fields_In. auto.
Qed.
Print Assumptions C14_plain_fields_extracted.

(* Non-vacuity: the four key shapes, prefix handling, fallback, field extraction *)
Example C14_nonvacuous :
  let cfgkey := u "0123456789abcdef0123456789abcdef" in
  let ingkey := u "hcaic_0123456789abcdefghijklmnopqrstuvwxyz0123456789abcdefghijkl" in
  let envkey := u "hcaik_0123456789abcdefghijklmnopqrstuvwxyz0123456789abcdefghijkl" in
  let r : rules := [(u "prod", {| sd_type := 3; sd_fields := [u "root.svc"; u "status"; u "?.NUM_DESCENDANTS"] |});
                    (u "pfx.ds", {| sd_type := 7; sd_fields := [u "a"] |});
                    (DEFAULT, {| sd_type := 1; sd_fields := [] |})] in
  is_legacy cfgkey = true /\ is_legacy ingkey = true /\ is_legacy envkey = false /\
  is_legacy (u "0123456789ABCDEF0123456789abcdef") = false /\ is_legacy (u "short") = false /\
  option_map sd_type (decide_sampler (u "pfx") r {| d_key := envkey; d_env := u "prod"; d_dataset := u "ds" |} []) = Some 3%N /\
  option_map sd_type (decide_sampler (u "pfx") r {| d_key := cfgkey; d_env := u "prod"; d_dataset := u "ds" |} []) = Some 7%N /\
  option_map sd_type (decide_sampler [] r {| d_key := cfgkey; d_env := u "prod"; d_dataset := u "ds" |} []) = Some 1%N /\
  ingest_fields (u "pfx") r {| d_key := envkey; d_env := u "prod"; d_dataset := u "ds" |} = [u "svc"; u "status"].
Proof. vm_compute. repeat split; reflexivity. Qed.
