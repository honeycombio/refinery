(* C34 — usage reports neither lose nor double-count usage.
   Statements; the proofs are in Proofs/Usage.v: each theorem is closed by a theorem from there, or by
   evaluation where it speaks of one concrete history or of the generated tables.

   urun uinit ops = (final tracker state, outputs) of the executable model of agent/usage_report.go and
   Agent.sendUsageReport over a history of cumulative readings (UAdd) and report attempts (UReport r1 r2,
   r1/r2 = what the OpAMP client answers to the first / the retried SendCustomMessage).
   sent_of outs k  : usage of signal k carried by the reports that were sent successfully
   pending s k     : usage of k still waiting (not yet reported, or reported but not confirmed)
   last_reading    : the latest nonzero cumulative reading = the counter's growth since start
   payload_nonneg o (Proofs/Usage.v) : if o is a report, no value in its payload is negative
   monotone ops [] : the readings of every signal never decrease and are never negative *)
From Refinery Require Import Lib.Base Model.Usage Proofs.Usage Gen.GenC34.

Theorem C34_source_shape :
  new_report_folds_unconfirmed_into_last = true /\ add_ignores_zero_reading = true /\
  complete_send_clears_last = true /\ negative_values_refused = true /\
  length send_attempts_in_source = 2%nat /\ length signal_to_metric = 4%nat.
Proof. repeat split; vm_compute; congruence. Qed.
Print Assumptions C34_source_shape.

(* For every history and every signal: sent + pending = growth. Nothing is lost, nothing counted twice. *)
Theorem C34_accounting : forall ops k,
  let '(s, outs) := urun uinit ops in
  sent_of outs k + pending s k = tot (lastUsage s) k.
Proof. exact accounting. Qed.
Print Assumptions C34_accounting.

Theorem C34_growth_is_last_reading : forall ops k,
  tot (lastUsage (fst (urun uinit ops))) k = last_reading ops k 0.
Proof. exact growth_is_last_reading. Qed.
Print Assumptions C34_growth_is_last_reading.

(* right after a report that was sent nothing is pending: all growth so far has been delivered *)
Theorem C34_flushed_after_sent : forall ops r1 r2 p n k,
  snd (ustep (fst (urun uinit ops)) (UReport r1 r2)) = OReport p n true ->
  let s := fst (ustep (fst (urun uinit ops)) (UReport r1 r2)) in
  pending s k = 0.
Proof. exact flushed_after_sent. Qed.
Print Assumptions C34_flushed_after_sent.

(* no report, sent or not, ever carries a negative value *)
Theorem C34_no_negative_usage : forall ops s, Forall payload_nonneg (snd (urun s ops)).
Proof. exact no_negative_usage. Qed.
Print Assumptions C34_no_negative_usage.

(* with counters that never decrease no report is ever refused and pending usage is never negative *)
Theorem C34_monotone_never_refused : forall ops,
  monotone ops [] = true ->
  ~ In OError (snd (urun uinit ops)) /\ forall k, 0 <= pending (fst (urun uinit ops)) k.
Proof.
  exact (fun ops => monotone_never_refused ops uinit []
           (conj (Forall_nil _) (conj (Forall_nil _) (fun k => eq_refl)))).
Qed.
Print Assumptions C34_monotone_never_refused.

(* The pinned code (lastDataPoints := currentDataPoints, dropping the still unconfirmed points of the
   previous report) loses usage when two sends in a row fail: growth 45, delivered 35, nothing pending. *)
Theorem C34_pinned_code_loses_usage :
  let ops := [UAdd 1 10; UReport RErr ROk; UAdd 1 25; UReport RErr ROk; UAdd 1 45; UReport ROk ROk]%N in
  let '(s, outs) := urun_gen false uinit ops in
  sent_of outs 1%N = 35 /\ pending s 1%N = 0 /\ tot (lastUsage s) 1%N = 45.
Proof. vm_compute. repeat split; reflexivity. Qed.
Print Assumptions C34_pinned_code_loses_usage.

(* Non-vacuity: the same history on the fixed code delivers all 45 (10 + 15 carried over twice). *)
Example C34_nonvacuous :
  let ops := [UAdd 1 10; UReport RErr ROk; UAdd 1 25; UReport RPending RErr; UAdd 1 45; UAdd 2 7; UReport RPending ROk]%N in
  monotone ops [] = true /\
  snd (urun uinit ops) =
    [ONone; OReport [(1%N, 10)] 1 false; ONone; OReport [(1%N, 15); (1%N, 10)] 2 false; ONone; ONone;
     OReport [(2%N, 7); (1%N, 20); (1%N, 25)] 2 true] /\
  sent_of (snd (urun uinit ops)) 1%N = 45 /\ pending (fst (urun uinit ops)) 1%N = 0.
Proof. vm_compute. repeat split; reflexivity. Qed.
