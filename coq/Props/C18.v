(* C18 — Redis peer membership converges; membership messages round-trip.
   Statements; each is closed by a theorem of Proofs/Peers.v (which rests on Proofs/TTL.v), by a
   line instantiating one, or by a concrete witness.

   marshal / unmarshal : the peer command codec on byte lists (after the fix: split at the last comma)
   item                : a command a node processes (processing instant, publish instant, R/U, id, address)
   get_peers ttl t0 items tau : the executable model of the node's MapWithTTL (Model/TTL.v, lazy cleanup)
                         fed with the items at their instants and listed at tau (GetPeers)
   spec_listing        : the same from the TTL liveness specification (latest R of every id, alive for ttl) *)
From Refinery Require Import Lib.Base Model.TTL Model.Peers Proofs.Peers Gen.GenC18.

(* The constants and code shape the theorems are about: entry timeout 10 s, refresh every 3 s plus a
   jitter below 3 s / 5, so a live node publishes at least every imax = 3.6 s, which leaves room for
   6.4 s of delivery delay inside the entry timeout; the decoder splits at the last comma; instance
   ids are 8 hex digits (never contain a comma).  This imax is the code's; the convergence theorems
   below hold for any imax and bind their own. *)
Definition imax : Z := refresh_interval + refresh_interval / refresh_jitter_div.
Theorem C18_source_shape :
  peer_entry_timeout = 10000000000 /\ refresh_interval = 3000000000 /\ imax = 3600000000 /\
  imax + 6400000000 <= peer_entry_timeout /\ imax <= 6400000000 /\
  unmarshal_splits_at_last_comma = true /\ marshal_is_action_address_comma_id = true /\
  peers_map_ttl_is_peer_entry_timeout = true /\ listen_sets_and_deletes_by_id = true /\
  instance_id_format = "%08.8x"%string.
Proof. repeat split; vm_compute; congruence. Qed.
Print Assumptions C18_source_shape.

(* Codec, partial: every register / unregister command with ANY address and any comma-free id
   decodes to exactly what was encoded. Missing for the full statement "all ID strings": an id that
   contains a comma (C18_codec_full_refuted) — the wire format R<address>,<id> cannot carry it;
   production ids are 8 hex digits (instance_id_format above). *)
Theorem C18_codec_roundtrip_partial : forall a addr id,
  act_ok a = true -> ~ In comma id -> unmarshal (marshal a addr id) = Some (a, addr, id).
Proof. exact codec_roundtrip. Qed.
Print Assumptions C18_codec_roundtrip_partial.

Theorem C18_codec_full_refuted :
  exists a addr id, act_ok a = true /\ unmarshal (marshal a addr id) <> Some (a, addr, id).
Proof.
  exists "R"%char, [], [comma]. split; [reflexivity|].
  intros H. apply codec_decode_encode in H. apply H. left. reflexivity.
Qed.
Print Assumptions C18_codec_full_refuted.

(* Nothing is invented on the way in: whatever decodes re-encodes to the very same bytes (so two
   different messages never decode to the same command), its action is R or U, its id comma-free. *)
Theorem C18_codec_decode_encode : forall msg a addr id,
  unmarshal msg = Some (a, addr, id) -> marshal a addr id = msg /\ act_ok a = true /\ ~ In comma id.
Proof. exact codec_decode_encode. Qed.
Print Assumptions C18_codec_decode_encode.

(* The node's view (lazy-cleanup TTL map, as in the code) is the liveness specification's view. *)
Theorem C18_view_refines_spec : forall ttl t0 items tau,
  0 <= ttl -> items_ok t0 items tau = true ->
  get_peers ttl t0 items tau = match spec_listing ttl items tau with [] => None | l => Some l end.
Proof. exact view_refines_spec. Qed.
Print Assumptions C18_view_refines_spec.

(* Convergence. For ANY list of commands a node processed (in time order, ties and the relation to
   the publish order arbitrary — registrations and unregistrations may overtake each other), if
     - every command is processed within d of being published, and imax + d <= ttl,
     - the nodes in L only ever register, with their own address, and each has a registration
       published in the last d + imax (alive and publishing at least every imax),
     - every other node published nothing after T0 (stopped gracefully or crashed before),
     - the query comes later than T0 + d + ttl,
   then GetPeers lists exactly the nodes of L with their addresses. *)
Theorem C18_get_peers_converged : forall ttl d imax T0 t0 tau items L addr_of,
  items_ok t0 items tau = true -> imax + d <= ttl -> T0 + d + ttl < tau ->
  (forall it, In it items -> i_t it <= i_p it + d) ->
  (forall it, In it items -> In (i_id it) L -> i_reg it = true /\ i_addr it = addr_of (i_id it)) ->
  (forall id, In id L -> exists it, In it items /\ i_id it = id /\ tau - d - imax <= i_p it) ->
  (forall it, In it items -> ~ In (i_id it) L -> i_p it <= T0) ->
  0 <= ttl -> L <> [] ->
  exists l, get_peers ttl t0 items tau = Some l /\
            forall id a, In (id, a) l <-> In id L /\ a = addr_of id.
Proof. exact get_peers_converged. Qed.
Print Assumptions C18_get_peers_converged.

(* ... in particular within the entry timeout plus one refresh interval when delivery takes at most
   one refresh interval. *)
Theorem C18_converged_within_timeout_plus_refresh : forall ttl d imax T0 t0 tau items L addr_of,
  items_ok t0 items tau = true -> imax + d <= ttl -> d <= imax -> T0 + ttl + imax < tau ->
  (forall it, In it items -> i_t it <= i_p it + d) ->
  (forall it, In it items -> In (i_id it) L -> i_reg it = true /\ i_addr it = addr_of (i_id it)) ->
  (forall id, In id L -> exists it, In it items /\ i_id it = id /\ tau - d - imax <= i_p it) ->
  (forall it, In it items -> ~ In (i_id it) L -> i_p it <= T0) ->
  0 <= ttl -> L <> [] ->
  exists l, get_peers ttl t0 items tau = Some l /\
            forall id a, In (id, a) l <-> In id L /\ a = addr_of id.
Proof. intros * Hok Hfit Hd Hlate. apply get_peers_converged; [exact Hok|exact Hfit|lia]. Qed.
Print Assumptions C18_converged_within_timeout_plus_refresh.

(* Non-vacuity: node 1 sees itself, node 2 (alive) and node 3, which stopped at T0 = 5 s; node 3's
   last registration (published at 4 s) overtakes its unregistration and is processed at 7 s. At
   17 s + 1 ns .. the view is exactly {1, 2}. *)
Example C18_nonvacuous :
  let s := 1000000000 in
  let it t p r i := {| i_t := t * s; i_p := p * s; i_reg := r; i_id := i; i_addr := i |} in
  let items := [it 0 0 true 1%N; it 1 1 true 2%N; it 2 2 true 3%N; it 5 5 false 3%N; it 7 4 true 3%N;
                it 12 12 true 1%N; it 12 12 true 2%N; it 15 15 true 1%N; it 16 15 true 2%N] in
  let tau := 18 * s + 1 in
  items_ok 0 items tau = true /\
  forallb (fun x => i_t x <=? i_p x + 3 * s) items = true /\
  get_peers peer_entry_timeout 0 items tau = Some [(2, 2); (1, 1)]%N /\
  get_peers peer_entry_timeout 0 items (17 * s) = Some [(2, 2); (1, 1); (3, 3)]%N /\
  unmarshal (marshal "R"%char (la "http://a,b:8081") (la "0123abcd")) = Some ("R"%char, la "http://a,b:8081", la "0123abcd").
Proof. vm_compute. repeat split; reflexivity. Qed.
