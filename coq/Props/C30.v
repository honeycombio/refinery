(* C30 — liveness and readiness follow subsystem reports within one tick.
   Statements; the proofs are in Proofs/Health.v: each theorem is closed by the theorem of the same name
   there; the tick constant and the example are evaluated.

   hstep/hrun/hfinal : executable model of internal/health/health.go (three maps, as in the code)
   sstep/srun/sfinal : specification state computed from the history alone: the registered
                       subsystems with their timeout and latest report (flag, ticks since, instant),
                       and the subsystems that unregistered and did not register again
   wf T t0 ops       : the history is tick-periodic: a tick is processed exactly every T, the clock
                       never passes a due tick and never runs backwards (operations that fall on a
                       tick instant may come before or after that tick).
   touches k o, nticks ops, elapsed ops (Proofs/Health.v) : o concerns subsystem k; the number of
                       ticks in ops; the sum of the clock advances in ops. *)
From Refinery Require Import Lib.Base Model.Health Proofs.Health Gen.GenC30.

(* The tick period constant of the code is the 500 ms of the property text. Only the constant is taken
   from the source text: that the ticker runs with this period, counts every positive counter down by
   it and clamps at 0, and that Ready resets the counter to the timeout, is established by the
   correspondence check on the running code (the driver ticks with the period the code passes to
   NewTicker and the monitor compares it with this constant), independently of statement shape. *)
Theorem C30_tick_is_500ms : ticker_time = 500000000 /\ 0 <= ticker_time.
Proof. split; vm_compute; congruence. Qed.
Print Assumptions C30_tick_is_500ms.

(* Every answer of IsAlive / IsReady in every history (any order of register / unregister / report /
   tick / query, any timeouts) equals the answer computed from the specification state. *)
Theorem C30_health_refines_spec : forall T t0 ops,
  0 <= T -> hrun T hinit ops = srun T (sinit T t0) ops.
Proof. exact health_refines_spec. Qed.
Print Assumptions C30_health_refines_spec.

(* The specification state is what it is called: after a report of k that is followed by
   operations not concerning k, it holds that report's flag, the number of ticks processed since,
   and the instant of the report; the clock has advanced by the elapsed time. *)
Theorem C30_spec_last_report : forall T t0 pre post k b sb,
  alookup k (subs (sfinal T (sinit T t0) pre)) = Some sb ->
  existsb (touches k) post = false ->
  let sp := sfinal T (sinit T t0) (pre ++ HReady k b :: post) in
  alookup k (subs sp) =
    Some {| s_to := s_to sb; s_rep := Some (b, nticks post, h_now (sfinal T (sinit T t0) pre)) |} /\
  h_now sp - h_now (sfinal T (sinit T t0) pre) = elapsed post.
Proof. exact spec_last_report. Qed.
Print Assumptions C30_spec_last_report.

(* Never reported dead: at any point of any tick-periodic history, a subsystem whose latest report
   is less than (timeout - T) old still has a positive counter ... *)
Theorem C30_never_dead_sub : forall T t0 ops, 0 <= T -> wf T t0 ops = true ->
  let s := hfinal T hinit ops in let sp := sfinal T (sinit T t0) ops in
  forall k sb b n r,
    alookup k (subs sp) = Some sb -> s_rep sb = Some (b, n, r) ->
    h_now sp - r < s_to sb - T ->
    exists c, alookup k (timeLeft s) = Some c /\ 0 < c.
Proof. exact never_dead_sub. Qed.
Print Assumptions C30_never_dead_sub.

(* ... hence if that holds for every subsystem that has reported, IsAlive answers true
   (subsystems that have not reported since registering never count as dead). *)
Theorem C30_never_dead : forall T t0 ops, 0 <= T -> wf T t0 ops = true ->
  let s := hfinal T hinit ops in let sp := sfinal T (sinit T t0) ops in
  (forall k sb b n r, alookup k (subs sp) = Some sb -> s_rep sb = Some (b, n, r) ->
                      h_now sp - r < s_to sb - T) ->
  check_alive s = true.
Proof. exact never_dead. Qed.
Print Assumptions C30_never_dead.

(* Dead after silence: a registered subsystem (timeout >= 0) whose latest report is more than
   (timeout + T) old has counter 0, IsAlive answers false and IsReady answers false — at every
   such instant, i.e. until it reports (or re-registers / unregisters) again. *)
Theorem C30_dead_after : forall T t0 ops, 0 <= T -> wf T t0 ops = true ->
  let s := hfinal T hinit ops in let sp := sfinal T (sinit T t0) ops in
  forall k sb b n r,
    alookup k (subs sp) = Some sb -> s_rep sb = Some (b, n, r) ->
    0 <= s_to sb -> h_now sp - r > s_to sb + T ->
    alookup k (timeLeft s) = Some 0 /\ check_alive s = false /\ check_ready s = false.
Proof. exact dead_after. Qed.
Print Assumptions C30_dead_after.

(* Ready exactly when at least one subsystem is registered, none is in the unregistered state, and
   every registered one has reported since registering, declared itself ready in its latest
   report and has not used up its timeout in whole ticks. *)
Theorem C30_ready_iff : forall T t0 ops, 0 <= T ->
  let s := hfinal T hinit ops in let sp := sfinal T (sinit T t0) ops in
  check_ready s = true <->
  (subs sp <> [] /\ unreg sp = [] /\
   forall k sb, alookup k (subs sp) = Some sb ->
     exists b n r, s_rep sb = Some (b, n, r) /\ b = true /\ Z.of_N n * T < s_to sb).
Proof. exact ready_iff. Qed.
Print Assumptions C30_ready_iff.

(* ... in particular ready whenever every registered subsystem's latest report said ready and is
   less than (timeout - T) old. *)
Theorem C30_ready_when_fresh : forall T t0 ops, 0 <= T -> wf T t0 ops = true ->
  let s := hfinal T hinit ops in let sp := sfinal T (sinit T t0) ops in
  subs sp <> [] -> unreg sp = [] ->
  (forall k sb, alookup k (subs sp) = Some sb ->
     exists n r, s_rep sb = Some (true, n, r) /\ h_now sp - r < s_to sb - T) ->
  check_ready s = true.
Proof. exact ready_when_fresh. Qed.
Print Assumptions C30_ready_when_fresh.

(* Non-vacuity: a tick-periodic history (T = the code's 500 ms, timeout 1.5 s; also the 15 s of the
   real collector) in which the subsystem is first alive and ready and then, silent, dead. *)
Example C30_nonvacuous :
  let T := ticker_time in
  let ops := [HReg 1 1500000000; HReady 1 true; HAdv T; HAlive; HTick; HAlive; HIsReady;
              HAdv T; HTick; HAdv T; HTick; HAdv T; HTick; HAdv 1; HAlive; HIsReady;
              HReady 1 true; HAlive; HIsReady; HUnreg 1; HIsReady]%N in
  wf T 0 ops = true /\
  hrun T hinit ops =
    [HNone; HNone; HNone; HBool true; HNone; HBool true; HBool true;
     HNone; HNone; HNone; HNone; HNone; HNone; HNone; HBool false; HBool false;
     HNone; HBool true; HBool true; HNone; HBool false] /\
  (let sp := sfinal T (sinit T 0) (firstn 14 ops) in
   exists sb b n r, alookup 1%N (subs sp) = Some sb /\ s_rep sb = Some (b, n, r) /\
                    0 <= s_to sb /\ h_now sp - r > s_to sb + T) /\
  wf T 0 [HReg 1 15000000000; HReady 1 true; HAdv T; HTick; HAlive]%N = true.
Proof.
  split; [vm_compute; reflexivity|]. split; [vm_compute; reflexivity|]. split; [|vm_compute; reflexivity].
  exists {| s_to := 1500000000; s_rep := Some (true, 4%N, 0) |}, true, 4%N, 0.
  vm_compute. repeat split; try reflexivity; discriminate.
Qed.
