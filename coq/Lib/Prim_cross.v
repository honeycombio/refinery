(* Cheap literals for generated case files (family "cross").
   A 64-bit [N] literal or a [string] literal is slow to parse (one constructor per bit / nine per
   character).  The harness therefore prints 64-bit numbers as two 32-bit halves and strings as 7-byte
   chunks, both as [%uint63] literals, and these functions decode them inside vm_compute.
   Used ONLY by Monitor files / generated cases, never by a theorem. *)
From Coq Require Import ZArith NArith List String Ascii.
From Coq Require Export Uint63.
Import ListNotations.

Definition w64 (hi lo : int) : N := (Z.to_N (Uint63.to_Z hi) * 4294967296 + Z.to_N (Uint63.to_Z lo))%N.

(* chunk = len * 2^56 + b0 + b1*2^8 + ... (len <= 7 bytes, little endian) *)
Definition chunk_str (c : int) (rest : string) : string :=
  let z := Z.to_N (Uint63.to_Z c) in
  (fix go (k : nat) (v : N) : string :=
     match k with O => rest | S k' => String (ascii_of_N (v mod 256)) (go k' (v / 256)%N) end)
    (N.to_nat (z / 72057594037927936)) (z mod 72057594037927936)%N.
Definition pstr (cs : list int) : string := fold_right chunk_str EmptyString cs.
