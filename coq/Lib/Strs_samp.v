(* Byte / code-point strings as lists of N, with equality, lexicographic order and insertion sort,
   shared by the models of C11 (trace keys), C12/C13 (registry keys) and C14 (sampler selection).
   No dependency on generated files. *)
From Refinery Require Export Lib.Base.
From Coq Require Import ZifyN ZifyNat ZifyBool Permutation.

Definition str := list N.

(* printable-ASCII helper used by the generated case files *)
Definition u (s : string) : str := map N_of_ascii (list_ascii_of_string s).

(* the same with escapes: a backslash followed by a decimal code point and ';' stands for that
   code point (used by the harness for non-printable and non-ASCII characters and the backslash itself) *)
Fixpoint ue_go (l : list N) (acc : option N) : str :=
  match l with
  | [] => []
  | c :: r =>
      match acc with
      | None => if (c =? 92)%N then ue_go r (Some 0%N) else c :: ue_go r None
      | Some a => if (c =? 59)%N then a :: ue_go r None else ue_go r (Some (a * 10 + (c - 48))%N)
      end
  end.
Definition ue (s : string) : str := ue_go (u s) None.

Definition str_eqb (a b : str) : bool := list_eqb N.eqb a b.

Fixpoint str_leb (a b : str) : bool :=
  match a, b with
  | [], _ => true
  | _ :: _, [] => false
  | x :: a', y :: b' => if (x <? y)%N then true else if (y <? x)%N then false else str_leb a' b'
  end.

Fixpoint sinsert (x : str) (l : list str) : list str :=
  match l with
  | [] => [x]
  | y :: r => if str_leb x y then x :: l else y :: sinsert x r
  end.
Fixpoint ssort (l : list str) : list str :=
  match l with [] => [] | x :: r => sinsert x (ssort r) end.

Fixpoint mem_str (x : str) (l : list str) : bool :=
  match l with [] => false | y :: r => str_eqb x y || mem_str x r end.

Fixpoint has_prefix (p s : str) : bool :=
  match p, s with
  | [], _ => true
  | _ :: _, [] => false
  | a :: p', b :: s' => N.eqb a b && has_prefix p' s'
  end.

Fixpoint dec_digits (fuel : nat) (n : N) (acc : str) : str :=
  match fuel with
  | O => acc
  | S f => let acc' := (48 + n mod 10)%N :: acc in
           if (n / 10 =? 0)%N then acc' else dec_digits f (n / 10)%N acc'
  end.
Definition dec_N (n : N) : str := dec_digits (S (N.to_nat (N.log2 n))) n [].
Definition dec_Z (z : Z) : str :=
  if z <? 0 then 45%N :: dec_N (Z.to_N (- z)) else dec_N (Z.to_N z).

Lemma str_eqb_eq a b : str_eqb a b = true <-> a = b.
Proof. apply list_eqb_eq, N.eqb_eq. Qed.
Lemma str_eqb_spec a b : reflect (a = b) (str_eqb a b).
Proof. apply iff_reflect. symmetry. apply str_eqb_eq. Qed.
Lemma str_eqb_refl a : str_eqb a a = true.
Proof. apply str_eqb_eq. reflexivity. Qed.
Lemma str_eqb_neq a b : str_eqb a b = false <-> a <> b.
Proof. rewrite <- str_eqb_eq. destruct (str_eqb a b); split; congruence. Qed.

Lemma mem_str_In x l : mem_str x l = true <-> In x l.
Proof.
  induction l as [|y r IH]; cbn [mem_str In]; [split; [discriminate|intros []]|].
  rewrite orb_true_iff, IH, str_eqb_eq. split; intros [H|H]; auto.
Qed.

Lemma str_leb_cons x a y b :
  str_leb (x :: a) (y :: b) = true <-> (x < y)%N \/ x = y /\ str_leb a b = true.
Proof.
  cbn [str_leb]. destruct (N.ltb_spec x y); [|destruct (N.ltb_spec y x)].
  - split; [auto|reflexivity].
  - split; [discriminate|lia].
  - split; [right; split; [lia|assumption]|intros [?|[_ ?]]; [lia|assumption]].
Qed.

Lemma str_leb_total a b : str_leb a b = true \/ str_leb b a = true.
Proof.
  revert b. induction a as [|x a IH]; destruct b as [|y b]; auto.
  rewrite !str_leb_cons. destruct (IH b); destruct (N.lt_total x y) as [?|[?|?]]; auto.
Qed.

Lemma str_leb_antisym a b : str_leb a b = true -> str_leb b a = true -> a = b.
Proof.
  revert b. induction a as [|x a IH]; destruct b as [|y b]; try discriminate; auto.
  rewrite !str_leb_cons. intros [?|[-> ?]] [?|[? ?]]; try lia. f_equal. auto.
Qed.

Lemma str_leb_trans a b c : str_leb a b = true -> str_leb b c = true -> str_leb a c = true.
Proof.
  revert b c. induction a as [|x a IH]; intros [|y b] [|z c]; try discriminate; auto.
  rewrite !str_leb_cons. intros [?|[-> ?]] [?|[-> ?]]; [left; lia ..|right; eauto].
Qed.

(* [ssort] is [fold_right sinsert []] written out as a fixpoint of its own; the two are convertible *)
Lemma ssort_perm l : Permutation (ssort l) l.
Proof. apply (isort_perm str str_leb sinsert); reflexivity. Qed.

Lemma ssort_perm_eq l1 l2 : Permutation l1 l2 -> ssort l1 = ssort l2.
Proof.
  apply (isort_perm_eq str str_leb sinsert (fun a b => str_leb a b = true)); try reflexivity.
  - auto.
  - intros a b E. destruct (str_leb_total a b); congruence.
  - exact str_leb_trans.
  - exact str_leb_antisym.
Qed.

Lemma ssort_eq_perm l1 l2 : ssort l1 = ssort l2 <-> Permutation l1 l2.
Proof.
  split; [|apply ssort_perm_eq].
  intros H. rewrite <- (ssort_perm l1), H. apply ssort_perm.
Qed.

Lemma ssort_In x l : In x (ssort l) <-> In x l.
Proof. split; apply Permutation_in; [|symmetry]; apply ssort_perm. Qed.

Lemma ssort_nil l : ssort l = [] <-> l = [].
Proof.
  split; intros H.
  - pose proof (ssort_perm l) as P. rewrite H in P. apply Permutation_nil in P. exact P.
  - subst. reflexivity.
Qed.
