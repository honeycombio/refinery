(* String-keyed association lists, as the payload model (C20) and the routing model (C19) use them. *)
From Refinery Require Import Lib.Base.

Section SMap.
  Context {V : Type}.
  Definition smap := list (string * V).

  Fixpoint slookup (k : string) (m : smap) : option V :=
    match m with
    | [] => None
    | (k', v) :: r => if String.eqb k k' then Some v else slookup k r
    end.

  Fixpoint sremove (k : string) (m : smap) : smap :=
    match m with
    | [] => []
    | (k', v) :: r => if String.eqb k k' then sremove k r else (k', v) :: sremove k r
    end.

  Definition sset (k : string) (v : V) (m : smap) : smap := (k, v) :: sremove k m.
  Definition skeys (m : smap) : list string := map fst m.
  Definition shas (k : string) (m : smap) : bool :=
    match slookup k m with Some _ => true | None => false end.

  Lemma slookup_filter_key (f : string -> bool) k (m : smap) :
    slookup k (filter (fun kv => f (fst kv)) m) = if f k then slookup k m else None.
  Proof.
    induction m as [|[k' v'] r IH]; cbn [filter slookup fst]; [destruct (f k); reflexivity|].
    destruct (String.eqb_spec k k') as [<-|Hne].
    - destruct (f k); [cbn [slookup]; rewrite String.eqb_refl; reflexivity|exact IH].
    - apply String.eqb_neq in Hne. destruct (f k'); cbn [slookup]; rewrite ?Hne; exact IH.
  Qed.

  Lemma NoDup_skeys_filter (f : string * V -> bool) (m : smap) :
    NoDup (skeys m) -> NoDup (skeys (filter f m)).
  Proof.
    induction m as [|[k v] r IH]; cbn [filter skeys map fst]; intros Hnd; [constructor|].
    inversion Hnd as [|? ? Hn Hr]; subst.
    destruct (f (k, v)); [|apply IH; exact Hr].
    cbn [skeys map fst]. constructor; [|apply IH; exact Hr].
    intros Hin. apply Hn. unfold skeys in *. rewrite in_map_iff in *.
    destruct Hin as [x [Hx Hin]]. apply filter_In in Hin. exists x. tauto.
  Qed.

  Lemma sremove_filter k m : sremove k m = filter (fun kv => negb (String.eqb k (fst kv))) m.
  Proof.
    induction m as [|[k' v] r IH]; cbn [sremove filter fst]; [reflexivity|].
    rewrite IH. destruct (String.eqb k k'); reflexivity.
  Qed.

  Lemma slookup_sremove_eq k m : slookup k (sremove k m) = None.
  Proof.
    rewrite sremove_filter, (slookup_filter_key (fun x => negb (String.eqb k x))), String.eqb_refl.
    reflexivity.
  Qed.

  Lemma slookup_sremove_neq k k' m : k <> k' -> slookup k (sremove k' m) = slookup k m.
  Proof.
    intros Hne. rewrite sremove_filter, (slookup_filter_key (fun x => negb (String.eqb k' x))).
    destruct (String.eqb_spec k' k); [congruence|reflexivity].
  Qed.

  Lemma slookup_sset_eq k v m : slookup k (sset k v m) = Some v.
  Proof. unfold sset. cbn [slookup]. rewrite String.eqb_refl. reflexivity. Qed.

  Lemma slookup_sset_neq k k' v m : k <> k' -> slookup k (sset k' v m) = slookup k m.
  Proof.
    intros Hne. unfold sset. cbn [slookup]. destruct (String.eqb_spec k k'); [contradiction|].
    apply slookup_sremove_neq, Hne.
  Qed.

  Lemma In_skeys_slookup k m : In k (skeys m) <-> slookup k m <> None.
  Proof.
    induction m as [|[k' v] r IH]; cbn [skeys map slookup In fst]; [intuition congruence|].
    fold (skeys r). rewrite IH. destruct (String.eqb_spec k k'); intuition congruence.
  Qed.

  Lemma slookup_None_notin k m : slookup k m = None <-> ~ In k (skeys m).
  Proof. rewrite In_skeys_slookup. destruct (slookup k m); intuition congruence. Qed.

  Lemma skeys_sremove_notin k m : ~ In k (skeys (sremove k m)).
  Proof. rewrite In_skeys_slookup, slookup_sremove_eq. intros H; apply H; reflexivity. Qed.

  Lemma In_skeys_sremove k k' m : In k (skeys (sremove k' m)) <-> k <> k' /\ In k (skeys m).
  Proof.
    destruct (string_dec k k') as [->|Hne].
    - split; [intros H; exfalso; exact (skeys_sremove_notin _ _ H)|intros [H _]; congruence].
    - rewrite !In_skeys_slookup, slookup_sremove_neq by exact Hne. tauto.
  Qed.

  Lemma NoDup_skeys_sremove k m : NoDup (skeys m) -> NoDup (skeys (sremove k m)).
  Proof. rewrite sremove_filter. apply NoDup_skeys_filter. Qed.

  Lemma NoDup_skeys_sset k v m : NoDup (skeys m) -> NoDup (skeys (sset k v m)).
  Proof.
    intros H. unfold sset. cbn [skeys map fst]. constructor.
    - apply skeys_sremove_notin.
    - apply NoDup_skeys_sremove; exact H.
  Qed.

  Lemma slookup_In k v m : slookup k m = Some v -> In (k, v) m.
  Proof.
    induction m as [|[k' v'] r IH]; cbn [slookup]; [discriminate|].
    destruct (String.eqb_spec k k') as [->|_]; [intros [= ->]; left; reflexivity|].
    intros H. right. apply IH. exact H.
  Qed.

  Lemma In_slookup_NoDup k v m : NoDup (skeys m) -> In (k, v) m -> slookup k m = Some v.
  Proof.
    induction m as [|[k' v'] r IH]; cbn [skeys map fst slookup]; intros Hnd Hin; [destruct Hin|].
    apply NoDup_cons_iff in Hnd. destruct Hnd as [Hn Hr].
    destruct Hin as [[= -> ->]|Hin]; [rewrite String.eqb_refl; reflexivity|].
    destruct (String.eqb_spec k k') as [->|_]; [|apply IH; assumption].
    exfalso. apply Hn. exact (in_map fst _ _ Hin).
  Qed.

  Lemma shas_true k m : shas k m = true <-> In k (skeys m).
  Proof.
    unfold shas. rewrite In_skeys_slookup. destruct (slookup k m); split; intros H; congruence.
  Qed.

  Lemma shas_false k m : shas k m = false <-> slookup k m = None.
  Proof. unfold shas. destruct (slookup k m); split; congruence. Qed.

  Lemma slookup_app k (a b : smap) :
    slookup k (a ++ b) = match slookup k a with Some v => Some v | None => slookup k b end.
  Proof.
    induction a as [|[k' v'] r IH]; cbn [app slookup]; [reflexivity|].
    destruct (String.eqb k k'); [reflexivity|exact IH].
  Qed.

  Lemma skeys_app (a b : smap) : skeys (a ++ b) = skeys a ++ skeys b.
  Proof. apply map_app. Qed.

  Lemma NoDup_skeys_app (a b : smap) :
    NoDup (skeys a) -> NoDup (skeys b) -> (forall k, In k (skeys a) -> slookup k b = None) ->
    NoDup (skeys (a ++ b)).
  Proof.
    induction a as [|[k v] r IH]; cbn [app skeys map fst]; intros Ha Hb Hd; [exact Hb|].
    apply NoDup_cons_iff in Ha. destruct Ha as [Hn Hr]. constructor.
    - fold (skeys (r ++ b)). rewrite skeys_app, in_app_iff. intros [H|H]; [exact (Hn H)|].
      apply In_skeys_slookup in H. apply H, Hd. left. reflexivity.
    - apply IH; [exact Hr|exact Hb|]. intros k' H. apply Hd. right. exact H.
  Qed.
End SMap.
Arguments smap V : clear implicits.

Lemma slookup_map_val {V W} (g : V -> W) k (m : smap V) :
  slookup k (map (fun kv => (fst kv, g (snd kv))) m) = option_map g (slookup k m).
Proof.
  induction m as [|[k' v'] r IH]; cbn [map slookup fst snd option_map]; [reflexivity|].
  destruct (String.eqb k k'); [reflexivity|exact IH].
Qed.

Lemma skeys_map_val {V W} (g : V -> W) (m : smap V) :
  skeys (map (fun kv => (fst kv, g (snd kv))) m) = skeys m.
Proof. unfold skeys. rewrite map_map. apply map_ext. intros [k v]. reflexivity. Qed.

Fixpoint smem (k : string) (l : list string) : bool :=
  match l with [] => false | x :: r => String.eqb k x || smem k r end.

Lemma smem_In k l : smem k l = true <-> In k l.
Proof.
  induction l as [|x r IH]; cbn [smem In]; [split; [discriminate|intros []]|].
  rewrite orb_true_iff, IH, String.eqb_eq. split; intros [H|H]; auto.
Qed.

Lemma smem_false_notin k l : smem k l = false <-> ~ In k l.
Proof. rewrite <- smem_In. destruct (smem k l); split; congruence. Qed.

Fixpoint sprefix (p s : string) : bool :=
  match p, s with
  | EmptyString, _ => true
  | String a p', String b s' => Ascii.eqb a b && sprefix p' s'
  | _, _ => false
  end.

(* sorting by key: used ONLY for canonicalisation in checkers *)
Fixpoint str_leb (a b : string) : bool :=
  match a, b with
  | EmptyString, _ => true
  | String _ _, EmptyString => false
  | String x a', String y b' =>
      let nx := N_of_ascii x in let ny := N_of_ascii y in
      if N.ltb nx ny then true else if N.ltb ny nx then false else str_leb a' b'
  end.

Section Sort.
  Context {V : Type}.
  Fixpoint sinsert (kv : string * V) (l : list (string * V)) : list (string * V) :=
    match l with
    | [] => [kv]
    | x :: r => if str_leb (fst kv) (fst x) then kv :: l else x :: sinsert kv r
    end.
  Definition ssort (l : list (string * V)) : list (string * V) := fold_right sinsert [] l.
End Sort.
