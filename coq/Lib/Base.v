(* The common base.  The standard library modules of the next two lines are re-exported, and Z_scope is left
   open in the importer (a file about nat reopens nat_scope).  Then facts about lists, association lists keyed by N
   and sorted lists that the standard library lacks, and the verdict codes of the Monitor files. *)
From Coq Require Export String Ascii.
From Coq Require Export List ZArith NArith Arith Bool Lia.
From Coq Require Import Sorting.Mergesort Sorting.Sorted Orders OrdersEx Permutation.
Export ListNotations.
Open Scope Z_scope.

Lemma In_firstn {A} n (a : A) l : In a (firstn n l) -> In a l.
Proof. intros H. rewrite <- (firstn_skipn n l). apply in_or_app. left. exact H. Qed.

Lemma NoDup_firstn {A} n (l : list A) : NoDup l -> NoDup (firstn n l).
Proof.
  revert n. induction l as [|b t IH]; intros n H; [rewrite firstn_nil; constructor|].
  destruct n; [constructor|]. cbn [firstn]. inversion H as [|? ? Hn Hr]; subst.
  constructor; [|apply IH; exact Hr].
  intros Hin. apply Hn. apply (In_firstn n _ _ Hin).
Qed.

Lemma filter_true {A} (l : list A) : filter (fun _ => true) l = l.
Proof. induction l as [|a r IH]; cbn [filter]; congruence. Qed.

Lemma filter_filter_impl {A} (f g : A -> bool) (l : list A) :
  (forall x, g x = true -> f x = true) -> filter g (filter f l) = filter g l.
Proof.
  intros H. induction l as [|x r IH]; cbn [filter]; [reflexivity|].
  destruct (f x) eqn:F; cbn [filter].
  - destruct (g x); rewrite IH; reflexivity.
  - destruct (g x) eqn:G; [rewrite (H _ G) in F; discriminate|exact IH].
Qed.

Lemma forallb_ext_in {A} (f g : A -> bool) l :
  (forall a, In a l -> f a = g a) -> forallb f l = forallb g l.
Proof.
  induction l as [|a r IH]; intros H; cbn [forallb]; [reflexivity|].
  rewrite (H a (or_introl eq_refl)), IH; [reflexivity|]. intros b Hb. apply H. right. exact Hb.
Qed.

Lemma forallb_perm {A} (f : A -> bool) a b : Permutation a b -> forallb f a = forallb f b.
Proof.
  induction 1 as [|x l l' _ IH|x y l|l l' l'' _ IH1 _ IH2]; [reflexivity| | |congruence]; cbn [forallb].
  - rewrite IH. reflexivity.
  - destruct (f x), (f y); reflexivity.
Qed.

Lemma existsb_perm {A} (f : A -> bool) a b : Permutation a b -> existsb f a = existsb f b.
Proof.
  induction 1 as [|x l l' _ IH|x y l|l l' l'' _ IH1 _ IH2]; [reflexivity| | |congruence]; cbn [existsb].
  - rewrite IH. reflexivity.
  - destruct (f x), (f y); reflexivity.
Qed.

Lemma additive_perm {A} (f : list A -> Z) :
  (forall a b, f (a ++ b) = f a + f b) -> forall a b, Permutation a b -> f a = f b.
Proof.
  intros Hf a b. induction 1 as [|x l l' _ IH|x y l|l l' l'' _ IH1 _ IH2]; [reflexivity| | |congruence].
  - change (f ([x] ++ l) = f ([x] ++ l')). rewrite !Hf, IH. reflexivity.
  - change (f ([y] ++ [x] ++ l) = f ([x] ++ [y] ++ l)). rewrite !Hf. lia.
Qed.

Lemma find_split {A} (f : A -> bool) l x :
  find f l = Some x ->
  exists l1 l2, l = l1 ++ x :: l2 /\ f x = true /\ forallb (fun y => negb (f y)) l1 = true.
Proof.
  induction l as [|y r IH]; cbn [find]; [discriminate|].
  destruct (f y) eqn:Hy.
  - intros [= <-]. exists [], r. repeat split. exact Hy.
  - intros H. destruct (IH H) as (l1 & l2 & -> & Hx & Hl1). exists (y :: l1), l2.
    repeat split; [exact Hx|]. cbn [forallb]. rewrite Hy. exact Hl1.
Qed.

Lemma map_flat_map {A B C} (f : A -> list B) (g : B -> C) l : map g (flat_map f l) = flat_map (fun a => map g (f a)) l.
Proof. induction l as [|a r IH]; cbn; [reflexivity|]. rewrite map_app, IH. reflexivity. Qed.

Lemma flat_map_app_perm {A B} (f g : A -> list B) l :
  Permutation (flat_map (fun a => f a ++ g a) l) (flat_map f l ++ flat_map g l).
Proof.
  induction l as [|a r IH]; cbn [flat_map]; [constructor|].
  rewrite <- !app_assoc. apply Permutation_app_head.
  rewrite IH. apply Permutation_app_swap_app.
Qed.

Lemma flat_map_select {B} (e : list B) (i : nat) l :
  NoDup l -> flat_map (fun j => if Nat.eqb i j then e else []) l = if in_dec Nat.eq_dec i l then e else [].
Proof.
  induction 1 as [|a r Hn Hr IH]; cbn [flat_map]; [reflexivity|]. rewrite IH.
  destruct (Nat.eqb_spec i a) as [->|E], (in_dec Nat.eq_dec _ r) as [F|F], (in_dec Nat.eq_dec _ (a :: r)) as [G|G];
    first [reflexivity | apply app_nil_r | exfalso; cbn [In] in G; intuition congruence].
Qed.

Lemma count_occ_flat_map_le {A B} (dec : forall x y : B, {x = y} + {x <> y}) (f g : A -> list B) l p :
  (forall a, In a l -> (count_occ dec (f a) p <= count_occ dec (g a) p)%nat) ->
  (count_occ dec (flat_map f l) p <= count_occ dec (flat_map g l) p)%nat.
Proof.
  induction l as [|a r IH]; intros H; cbn [flat_map]; [apply Nat.le_refl|]. rewrite !count_occ_app.
  apply Nat.add_le_mono; [apply H; left; reflexivity|apply IH; intros b Hb; apply H; right; exact Hb].
Qed.

Section AMap.
  Context {V : Type}.
  Definition amap := list (N * V).

  Fixpoint alookup (k : N) (m : amap) : option V :=
    match m with
    | [] => None
    | (k', v) :: r => if N.eqb k k' then Some v else alookup k r
    end.

  Fixpoint aremove (k : N) (m : amap) : amap :=
    match m with
    | [] => []
    | (k', v) :: r => if N.eqb k k' then aremove k r else (k', v) :: aremove k r
    end.

  Definition aset (k : N) (v : V) (m : amap) : amap := (k, v) :: aremove k m.

  Definition akeys (m : amap) : list N := map fst m.

  Lemma alookup_aremove_eq k m : alookup k (aremove k m) = None.
  Proof.
    induction m as [|[k' v] r IH]; cbn [aremove alookup]; [reflexivity|].
    destruct (N.eqb k k') eqn:E; [exact IH|]. cbn [alookup]. rewrite E. exact IH.
  Qed.

  Lemma alookup_aremove_neq k k' m : k <> k' -> alookup k (aremove k' m) = alookup k m.
  Proof.
    intros Hne. induction m as [|[k2 v] r IH]; cbn [aremove alookup]; [reflexivity|].
    destruct (N.eqb k' k2) eqn:E.
    - apply N.eqb_eq in E. subst k2.
      destruct (N.eqb k k') eqn:E2; [apply N.eqb_eq in E2; contradiction|exact IH].
    - cbn [alookup]. destruct (N.eqb k k2); [reflexivity|exact IH].
  Qed.

  Lemma alookup_aset_eq k v m : alookup k (aset k v m) = Some v.
  Proof. unfold aset. cbn [alookup]. rewrite N.eqb_refl. reflexivity. Qed.

  Lemma alookup_aset_neq k k' v m : k <> k' -> alookup k (aset k' v m) = alookup k m.
  Proof.
    intros Hne. unfold aset. cbn [alookup].
    destruct (N.eqb k k') eqn:E; [apply N.eqb_eq in E; contradiction|].
    apply alookup_aremove_neq; exact Hne.
  Qed.

  Lemma In_akeys_alookup k m : In k (akeys m) <-> alookup k m <> None.
  Proof.
    induction m as [|[k' v] r IH]; cbn [akeys map alookup In fst].
    - split; [intros []|intros H; apply H; reflexivity].
    - destruct (N.eqb k k') eqn:E.
      + apply N.eqb_eq in E. subst. split; [discriminate|left; reflexivity].
      + apply N.eqb_neq in E. split.
        * intros [H|H]; [congruence|apply IH; exact H].
        * intros H. right. apply IH. exact H.
  Qed.

  Lemma akeys_aremove_notin k m : ~ In k (akeys (aremove k m)).
  Proof. rewrite In_akeys_alookup, alookup_aremove_eq. intros H; apply H; reflexivity. Qed.

  Lemma In_akeys_aremove k k' m : In k (akeys (aremove k' m)) <-> k <> k' /\ In k (akeys m).
  Proof.
    destruct (N.eq_dec k k') as [->|Hne].
    - split; [intros H; exfalso; exact (akeys_aremove_notin _ _ H)|intros [H _]; congruence].
    - rewrite !In_akeys_alookup, alookup_aremove_neq by exact Hne. tauto.
  Qed.

  Lemma NoDup_akeys_aremove k m : NoDup (akeys m) -> NoDup (akeys (aremove k m)).
  Proof.
    induction m as [|[k' v] r IH]; cbn [akeys map aremove fst]; intros H; [constructor|].
    inversion H as [|? ? Hn Hr]; subst.
    destruct (N.eqb k k'); [apply IH; exact Hr|].
    cbn [map fst]. constructor; [|apply IH; exact Hr].
    intros Hin. apply Hn. apply (In_akeys_aremove k' k r) in Hin. tauto.
  Qed.

  Lemma NoDup_akeys_aset k v m : NoDup (akeys m) -> NoDup (akeys (aset k v m)).
  Proof.
    intros H. unfold aset. cbn [akeys map fst]. constructor.
    - apply akeys_aremove_notin.
    - apply NoDup_akeys_aremove; exact H.
  Qed.

  Lemma alookup_In k v m : alookup k m = Some v -> In (k, v) m.
  Proof.
    induction m as [|[k' v'] r IH]; cbn [alookup]; [discriminate|].
    destruct (N.eqb k k') eqn:E.
    - apply N.eqb_eq in E. intros [= ->]. left. subst. reflexivity.
    - intros H. right. apply IH. exact H.
  Qed.

  Lemma In_alookup_NoDup k v m : NoDup (akeys m) -> In (k, v) m -> alookup k m = Some v.
  Proof.
    induction m as [|[k' v'] r IH]; cbn [akeys map fst alookup]; intros Hnd Hin; [destruct Hin|].
    inversion Hnd as [|? ? Hn Hr]; subst.
    destruct Hin as [Heq|Hin].
    - injection Heq as -> ->. rewrite N.eqb_refl. reflexivity.
    - destruct (N.eqb k k') eqn:E.
      + apply N.eqb_eq in E. subst k'. exfalso. apply Hn.
        change (In k (akeys r)). apply in_map_iff. exists (k, v). split; [reflexivity|exact Hin].
      + apply IH; assumption.
  Qed.

  Lemma alookup_aset k k' v m : alookup k' (aset k v m) = if N.eqb k' k then Some v else alookup k' m.
  Proof. destruct (N.eqb_spec k' k) as [->|Hne]; [apply alookup_aset_eq|apply alookup_aset_neq, Hne]. Qed.

  Lemma alookup_aremove k k' m : alookup k' (aremove k m) = if N.eqb k' k then None else alookup k' m.
  Proof. destruct (N.eqb_spec k' k) as [->|Hne]; [apply alookup_aremove_eq|apply alookup_aremove_neq, Hne]. Qed.

  Lemma alookup_aremove_some t k m v : alookup t (aremove k m) = Some v -> alookup t m = Some v.
  Proof. rewrite alookup_aremove. destruct (N.eqb t k); [discriminate|trivial]. Qed.

  Lemma aremove_absent k m : alookup k m = None -> aremove k m = m.
  Proof.
    induction m as [|[k' v] r IH]; cbn [alookup aremove]; [reflexivity|].
    destruct (N.eqb k k'); [discriminate|]. intros H. rewrite (IH H). reflexivity.
  Qed.

  Lemma In_aremove kv t m : In kv (aremove t m) <-> In kv m /\ fst kv <> t.
  Proof.
    induction m as [|[k v] r IH]; cbn [aremove In]; [tauto|].
    destruct (N.eqb_spec t k) as [->|Hne]; cbn [In]; rewrite IH.
    - split; [tauto|]. intros [[<-|H] Hn]; [exfalso; apply Hn; reflexivity|tauto].
    - split; [|tauto]. intros [<-|H]; [split; [left; reflexivity|cbn; congruence]|tauto].
  Qed.

  Lemma incl_aremove k m : incl (aremove k m) m.
  Proof. intros kv H. apply In_aremove in H. tauto. Qed.

  Lemma In_aset k k' v v' m : In (k, v) (aset k' v' m) -> In (k, v) m \/ v = v'.
  Proof. intros [H|H]; [right; congruence|left; exact (incl_aremove _ _ _ H)]. Qed.
End AMap.
Arguments amap V : clear implicits.

Lemma alookup_filter {V} (f : N * V -> bool) k (m : amap V) :
  NoDup (akeys m) ->
  alookup k (filter f m) =
  match alookup k m with Some v => if f (k, v) then Some v else None | None => None end.
Proof.
  induction m as [|[k' v'] r IH]; cbn [filter alookup akeys map fst]; intros Hnd; [reflexivity|].
  inversion Hnd as [|? ? Hn Hr]; subst.
  destruct (N.eqb k k') eqn:E.
  - apply N.eqb_eq in E. subst k'.
    destruct (f (k, v')) eqn:F.
    + cbn [alookup]. rewrite N.eqb_refl. reflexivity.
    + rewrite (IH Hr).
      destruct (alookup k r) eqn:L; [|reflexivity].
      exfalso. apply Hn. apply In_akeys_alookup. congruence.
  - destruct (f (k', v')); [cbn [alookup]; rewrite E|]; apply IH; exact Hr.
Qed.

Lemma NoDup_akeys_filter {V} (f : N * V -> bool) (m : amap V) :
  NoDup (akeys m) -> NoDup (akeys (filter f m)).
Proof.
  induction m as [|[k v] r IH]; cbn [filter akeys map fst]; intros Hnd; [constructor|].
  inversion Hnd as [|? ? Hn Hr]; subst.
  destruct (f (k, v)); [|apply IH; exact Hr].
  cbn [akeys map fst]. constructor; [|apply IH; exact Hr].
  intros Hin. apply Hn. unfold akeys in *. apply in_map_iff in Hin.
  destruct Hin as [[k2 v2] [Hk Hin]]. apply filter_In in Hin. cbn in Hk. subst k2.
  apply in_map_iff. exists (k, v2). split; [reflexivity|tauto].
Qed.

Lemma filter_aremove {V} (f : N * V -> bool) k (m : amap V) :
  filter f (aremove k m) = aremove k (filter f m).
Proof.
  induction m as [|[k' v] r IH]; cbn [aremove filter]; [reflexivity|].
  destruct (N.eqb k k') eqn:E, (f (k', v)) eqn:F; cbn [aremove filter]; rewrite ?E, ?F, IH; reflexivity.
Qed.

Lemma filter_aset {V} (f : N * V -> bool) k v (m : amap V) :
  filter f (aset k v m) = (if f (k, v) then [(k, v)] else []) ++ aremove k (filter f m).
Proof. unfold aset. cbn [filter]. rewrite filter_aremove. destruct (f (k, v)); reflexivity. Qed.

Lemma forallb_alookup {V} (f : N * V -> bool) (m : amap V) :
  NoDup (akeys m) ->
  (forallb f m = true <-> forall k v, alookup k m = Some v -> f (k, v) = true).
Proof.
  intros Hnd. rewrite forallb_forall. split.
  - intros H k v Hl. apply H. apply alookup_In. exact Hl.
  - intros H [k v] Hin. apply H. apply In_alookup_NoDup; assumption.
Qed.

Lemma forallb_alookup_false {V} (f : N * V -> bool) k v (m : amap V) :
  alookup k m = Some v -> f (k, v) = false -> forallb f m = false.
Proof.
  intros Hl Hf. apply not_true_is_false. intros F. rewrite forallb_forall in F.
  rewrite (F _ (alookup_In _ _ _ Hl)) in Hf. discriminate.
Qed.

Lemma length_filter_aremove {V} (p : N * V -> bool) k v (b : amap V) :
  NoDup (akeys b) -> alookup k b = Some v ->
  length (filter p b) = (length (filter p (aremove k b)) + Nat.b2n (p (k, v)))%nat.
Proof.
  induction b as [|[k1 v1] r IH]; cbn [akeys map fst alookup aremove filter]; intros Hnd Hl; [discriminate|].
  inversion Hnd as [|? ? Hn Hr]; subst. destruct (N.eqb_spec k k1) as [<-|_].
  - injection Hl as <-. rewrite aremove_absent.
    + destruct (p (k, v1)); cbn [length Nat.b2n]; lia.
    + destruct (alookup k r) eqn:L; [|reflexivity]. destruct Hn. apply In_akeys_alookup. congruence.
  - cbn [filter]. specialize (IH Hr Hl). destruct (p (k1, v1)); cbn [length]; lia.
Qed.

Lemma length_filter_aremove_le {V} (p : N * V -> bool) k (b : amap V) :
  (length (filter p (aremove k b)) <= length (filter p b))%nat.
Proof.
  induction b as [|[k1 v1] r IH]; cbn [aremove filter]; [lia|].
  destruct (N.eqb k k1); cbn [filter]; destruct (p (k1, v1)); cbn [length]; lia.
Qed.

Lemma akeys_firstn {V} n (m : amap V) : akeys (firstn n m) = firstn n (akeys m).
Proof. symmetry. apply firstn_map. Qed.

Lemma fold_aset_notin {V W} (f : W -> V) (l : list (N * W)) : forall d t,
  ~ In t (map fst l) -> alookup t (fold_left (fun d kv => aset (fst kv) (f (snd kv)) d) l d) = alookup t d.
Proof.
  induction l as [|[k x] r IH]; intros d t Hn; [reflexivity|]. cbn [fold_left fst snd].
  rewrite IH by (intros F; apply Hn; right; exact F).
  apply alookup_aset_neq. intros ->. apply Hn. left; reflexivity.
Qed.

Lemma fold_aset_in {V W} (f : W -> V) (l : list (N * W)) : forall d t x,
  NoDup (map fst l) -> In (t, x) l ->
  alookup t (fold_left (fun d kv => aset (fst kv) (f (snd kv)) d) l d) = Some (f x).
Proof.
  induction l as [|[k y] r IH]; intros d t x Hnd Hin; [destruct Hin|].
  inversion Hnd as [|? ? Hk Hr]; subst. cbn [fold_left fst snd].
  destruct Hin as [[= -> ->]|Hin]; [|apply IH; assumption].
  rewrite fold_aset_notin by exact Hk. apply alookup_aset_eq.
Qed.

Definition mapv {V W} (g : V -> W) (m : amap V) : amap W := map (fun kv => (fst kv, g (snd kv))) m.

Lemma alookup_mapv {V W} (g : V -> W) k (m : amap V) :
  alookup k (mapv g m) = option_map g (alookup k m).
Proof.
  induction m as [|[k' v] r IH]; cbn [mapv map alookup fst snd option_map]; [reflexivity|].
  destruct (N.eqb k k'); [reflexivity|exact IH].
Qed.

Lemma akeys_mapv {V W} (g : V -> W) (m : amap V) : akeys (mapv g m) = akeys m.
Proof. unfold akeys, mapv. rewrite map_map. apply map_ext. intros [k v]. reflexivity. Qed.

Lemma mapv_aremove {V W} (g : V -> W) k (m : amap V) : mapv g (aremove k m) = aremove k (mapv g m).
Proof.
  induction m as [|[k' v] r IH]; cbn [mapv map aremove fst snd]; [reflexivity|].
  destruct (N.eqb k k'); [exact IH|]. cbn [map fst snd]. f_equal. exact IH.
Qed.

Lemma mapv_aset {V W} (g : V -> W) k v (m : amap V) : mapv g (aset k v m) = aset k (g v) (mapv g m).
Proof. unfold aset. rewrite <- mapv_aremove. reflexivity. Qed.

Lemma mapv_mapv {U V W} (g : V -> W) (h : U -> V) (m : amap U) :
  mapv g (mapv h m) = mapv (fun u => g (h u)) m.
Proof. unfold mapv. rewrite map_map. reflexivity. Qed.

Lemma mapv_ext {V W} (g h : V -> W) (m : amap V) : (forall v, g v = h v) -> mapv g m = mapv h m.
Proof. intros H. apply map_ext. intros kv. rewrite H. reflexivity. Qed.

Lemma forallb_mapv {V W} (f : N * W -> bool) (f' : N * V -> bool) (g : V -> W) (m : amap V) :
  (forall k v, f (k, g v) = f' (k, v)) -> forallb f (mapv g m) = forallb f' m.
Proof.
  intros H. induction m as [|[k v] r IH]; cbn [mapv map forallb fst snd]; [reflexivity|].
  rewrite H. f_equal. exact IH.
Qed.

Lemma filter_mapv {V W} (f : N * W -> bool) (f' : N * V -> bool) (g : V -> W) (m : amap V) :
  (forall k v, f (k, g v) = f' (k, v)) -> filter f (mapv g m) = mapv g (filter f' m).
Proof.
  intros H. induction m as [|[k v] r IH]; cbn [mapv map filter fst snd]; [reflexivity|].
  rewrite H. destruct (f' (k, v)); cbn [map fst snd]; [f_equal|]; exact IH.
Qed.

(* the relation between a lazily cleaned container and the list it stands for *)
Definition agree {A} (f : A -> bool) (m m' : list A) : Prop := filter f m = filter f m'.

Lemma agree_aremove {V} (f : N * V -> bool) k (m m' : amap V) :
  agree f m m' -> agree f (aremove k m) (aremove k m').
Proof. unfold agree. intros H. rewrite !filter_aremove, H. reflexivity. Qed.

Lemma agree_aset {V} (f : N * V -> bool) k v (m m' : amap V) :
  agree f m m' -> agree f (aset k v m) (aset k v m').
Proof. unfold agree. intros H. rewrite !filter_aset, H. reflexivity. Qed.

Lemma agree_filter_l {A} (f : A -> bool) m m' : agree f m m' -> agree f (filter f m) m'.
Proof. unfold agree. intros H. rewrite filter_filter_impl by auto. exact H. Qed.

Lemma agree_mono {A} (f g : A -> bool) m m' :
  (forall x, g x = true -> f x = true) -> agree f m m' -> agree g m m'.
Proof.
  unfold agree. intros Hgf H.
  rewrite <- (filter_filter_impl f g m Hgf), <- (filter_filter_impl f g m' Hgf), H. reflexivity.
Qed.

(* antisymmetry is asked of the elements of l1 only, so that a caller may get it from a hypothesis about that list *)
Lemma sorted_perm_eq {A} (R : A -> A -> Prop) (l1 : list A) : forall l2,
  StronglySorted R l1 -> StronglySorted R l2 -> Permutation l1 l2 ->
  (forall x y, In x l1 -> In y l1 -> R x y -> R y x -> x = y) ->
  l1 = l2.
Proof.
  induction l1 as [|x r1 IH]; intros l2 S1 S2 P Anti.
  - apply Permutation_nil in P. subst. reflexivity.
  - destruct l2 as [|y r2]; [apply Permutation_sym, Permutation_nil in P; discriminate|].
    apply StronglySorted_inv in S1, S2. destruct S1 as [S1 F1], S2 as [S2 F2].
    rewrite Forall_forall in F1, F2.
    (* each head is a least element of the other list as well *)
    assert (x = y) as <-.
    { destruct (Permutation_in x P (or_introl eq_refl)) as [E|Hx]; [auto|].
      destruct (Permutation_in y (Permutation_sym P) (or_introl eq_refl)) as [E|Hy]; [auto|].
      apply Anti; [left; reflexivity|right; exact Hy|apply F1, Hy|apply F2, Hx]. }
    f_equal. apply IH; [exact S1|exact S2|exact (Permutation_cons_inv P)|].
    intros a b Ha Hb. apply Anti; right; assumption.
Qed.

Lemma StronglySorted_NoDup {A} (R : A -> A -> Prop) (l : list A) :
  (forall x, ~ R x x) -> StronglySorted R l -> NoDup l.
Proof.
  intros Irr. induction 1 as [|x r S IH F]; constructor; [|exact IH].
  intros Hx. apply (Irr x). exact (proj1 (Forall_forall _ _) F x Hx).
Qed.

Lemma strict_sorted_eq {A} (R : A -> A -> Prop) (l1 l2 : list A) :
  (forall x, ~ R x x) -> (forall x y z, R x y -> R y z -> R x z) ->
  StronglySorted R l1 -> StronglySorted R l2 -> (forall y, In y l1 <-> In y l2) -> l1 = l2.
Proof.
  intros Irr Tr S1 S2 Hin. apply (sorted_perm_eq R); [exact S1|exact S2| |].
  - apply NoDup_Permutation; [exact (StronglySorted_NoDup R l1 Irr S1)|exact (StronglySorted_NoDup R l2 Irr S2)|exact Hin].
  - intros x y _ _ Hxy Hyx. destruct (Irr x). exact (Tr x y x Hxy Hyx).
Qed.

Lemma StronglySorted_map {A B} (f : A -> B) (R : B -> B -> Prop) (l : list A) :
  StronglySorted (fun a b => R (f a) (f b)) l -> StronglySorted R (map f l).
Proof.
  induction 1 as [|x r S IH F]; cbn [map]; constructor; [exact IH|].
  apply Forall_forall. intros b Hb. apply in_map_iff in Hb. destruct Hb as [a [<- Ha]].
  exact (proj1 (Forall_forall _ _) F a Ha).
Qed.

(* Insertion sort, known only through the two equations of its insertion function. *)
Section InsertionSort.
  Variables (A : Type) (leb : A -> A -> bool) (ins : A -> list A -> list A) (R : A -> A -> Prop).
  Hypothesis ins_nil : forall a, ins a [] = [a].
  Hypothesis ins_cons : forall a x r, ins a (x :: r) = if leb a x then a :: x :: r else x :: ins a r.
  Hypothesis leb_true : forall a b, leb a b = true -> R a b.
  Hypothesis leb_false : forall a b, leb a b = false -> R b a.
  Hypothesis R_trans : forall a b c, R a b -> R b c -> R a c.
  Hypothesis R_antisym : forall a b, R a b -> R b a -> a = b.

  Lemma ins_perm a l : Permutation (ins a l) (a :: l).
  Proof.
    induction l as [|x r IH]; [rewrite ins_nil; reflexivity|]. rewrite ins_cons.
    destruct (leb a x); [reflexivity|]. rewrite IH. apply perm_swap.
  Qed.

  Lemma isort_perm l : Permutation (fold_right ins [] l) l.
  Proof.
    induction l as [|x r IH]; cbn [fold_right]; [reflexivity|]. rewrite ins_perm, IH. reflexivity.
  Qed.

  Lemma ins_sorted a l : StronglySorted R l -> StronglySorted R (ins a l).
  Proof.
    induction 1 as [|x r S IH F]; [rewrite ins_nil; repeat constructor|]. rewrite ins_cons.
    destruct (leb a x) eqn:E.
    - constructor; [constructor; assumption|]. constructor; [apply leb_true, E|].
      eapply Forall_impl; [|exact F]. intros y. apply R_trans, leb_true, E.
    - constructor; [exact IH|]. rewrite ins_perm. constructor; [apply leb_false, E|exact F].
  Qed.

  Lemma isort_sorted l : StronglySorted R (fold_right ins [] l).
  Proof. induction l as [|x r IH]; cbn [fold_right]; [constructor|apply ins_sorted, IH]. Qed.

  Lemma isort_perm_eq l1 l2 : Permutation l1 l2 -> fold_right ins [] l1 = fold_right ins [] l2.
  Proof.
    intros P. apply (sorted_perm_eq R); try apply isort_sorted.
    - rewrite !isort_perm. exact P.
    - intros x y _ _. apply R_antisym.
  Qed.
End InsertionSort.

(* OrdersEx.String_as_OT.compare is String.compare written out a second time, and convertible with
   it, so the strict order the library proves for the one is a strict order for the other *)
Lemma string_lt_trans a b c :
  String.compare a b = Lt -> String.compare b c = Lt -> String.compare a c = Lt.
Proof. apply String_as_OT.lt_strorder. Qed.

Lemma string_lt_irrefl a : String.compare a a <> Lt.
Proof. apply String_as_OT.lt_strorder. Qed.

Lemma string_leb_trans a b c : String.leb a b = true -> String.leb b c = true -> String.leb a c = true.
Proof.
  unfold String.leb.
  destruct (String.compare a b) eqn:Eab; [apply String.compare_eq_iff in Eab; subst b; trivial| |discriminate].
  destruct (String.compare b c) eqn:Ebc; [apply String.compare_eq_iff in Ebc; subst c; rewrite Eab; trivial| |discriminate].
  rewrite (string_lt_trans a b c Eab Ebc). reflexivity.
Qed.

(* only the Monitor files call these, to bring two observations into one order before comparing them *)
Module NOrderTotal <: TotalLeBool.
  Definition t := N.
  Definition leb := N.leb.
  Lemma leb_total : forall a b, leb a b = true \/ leb b a = true.
  Proof. intros a b. unfold leb. rewrite !N.leb_le. lia. Qed.
End NOrderTotal.
Module NSort := Sort NOrderTotal.
Definition nsort (l : list N) : list N := NSort.sort l.

Module ZOrderTotal <: TotalLeBool.
  Definition t := Z.
  Definition leb := Z.leb.
  Lemma leb_total : forall a b, leb a b = true \/ leb b a = true.
  Proof. intros a b. unfold leb. rewrite !Z.leb_le. lia. Qed.
End ZOrderTotal.
Module ZSort := Sort ZOrderTotal.
Definition zsort (l : list Z) : list Z := ZSort.sort l.

Fixpoint list_eqb {A} (eqb : A -> A -> bool) (a b : list A) : bool :=
  match a, b with
  | [], [] => true
  | x :: a', y :: b' => eqb x y && list_eqb eqb a' b'
  | _, _ => false
  end.

Lemma list_eqb_eq {A} (eqb : A -> A -> bool) :
  (forall x y, eqb x y = true <-> x = y) -> forall a b, list_eqb eqb a b = true <-> a = b.
Proof.
  intros Heq. induction a as [|x a IH]; destruct b as [|y b]; cbn [list_eqb];
    try (split; [discriminate|discriminate]); [split; reflexivity|].
  rewrite andb_true_iff, Heq, IH. split; [intros [-> ->]; reflexivity|intros [= -> ->]; auto].
Qed.

Lemma list_eqb_refl {A} (eqb : A -> A -> bool) :
  (forall x, eqb x x = true) -> forall l, list_eqb eqb l l = true.
Proof.
  intros Hr l. induction l as [|x l IH]; cbn; [reflexivity|]. rewrite Hr, IH. reflexivity.
Qed.

Definition option_eqb {A} (eqb : A -> A -> bool) (a b : option A) : bool :=
  match a, b with
  | None, None => true
  | Some x, Some y => eqb x y
  | _, _ => false
  end.

Fixpoint mem_N (k : N) (l : list N) : bool :=
  match l with [] => false | x :: r => N.eqb k x || mem_N k r end.

Lemma mem_N_In k l : mem_N k l = true <-> In k l.
Proof.
  induction l as [|x r IH]; cbn [mem_N In]; [split; [discriminate|intros []]|].
  rewrite orb_true_iff, IH, N.eqb_eq. split; intros [H|H]; auto.
Qed.

(* so that a Model file can write down arbitrary bytes *)
Definition bs (l : list N) : string :=
  fold_right (fun n acc => String (ascii_of_N n) acc) EmptyString l.

(* Verdict codes shared by all Monitor files.  A checker maps one correspondence case to a list of codes:
     []      : model agrees with the implementation and the monitor holds
     1       : model and implementation disagree on a projected observable
     >= 10   : the property monitor is false on the implementation's observation;
               the number is the violation class (see props/Cxx.json). *)
Definition codes := list N.
Definition code_mismatch : N := 1%N.

Fixpoint index_codes_from {C} (chk : C -> codes) (i : N) (cs : list C) : list (N * codes) :=
  match cs with
  | [] => []
  | c :: r => match chk c with
              | [] => index_codes_from chk (N.succ i) r
              | l => (i, l) :: index_codes_from chk (N.succ i) r
              end
  end.
Definition check_all {C} (chk : C -> codes) (cs : list C) : list (N * codes) :=
  index_codes_from chk 0%N cs.
